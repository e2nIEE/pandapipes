(* C10 - a concrete fixed point over R (non-vacuity of the pipeline theorems): the hypotheses of
   branch_cooling_law, node_mixing_law, infeed_rows_fix_temperature, local / global bounds are satisfied by

     node 0 (T-typed feeder, 370 K) --b0-->  node 2  <--b1-- node 1 (T-typed feeder, 280 K)     node 2 --b2--> node 3
     b1 is DECLARED from node 2 to node 1 and carries m = -1 (flow against the declaration: switched),
     b0 carries m = 1, b2 carries m = 2; loss-free pipes (alpha = 0, so the exponential is exp 0 = 1),
     constant c_p = 4000; node 2 mixes 370 K and 280 K to 325 K; node 3 has 325 K.

   numpy kernels (tw = true); for tw = false the proofs are the same, except that [stream_w] then carries no flow
   mask to rewrite. *)
From Coq Require Import Reals Lra Lia List.
From PP Require Import Kern.RBool Gen.KThermNp Gen.KThermExpr C10.Spec C10.Model C10.Assembly C10.Proofs C10.GlobalPipe.
Import ListNotations.
Open Scope R_scope.

Definition ex_cp : R -> R := fun _ => 4000.
Definition ex_T (i : nat) : R := match i with O => 370 | 1%nat => 280 | _ => 325 end.
Definition ex_isT (i : nat) : bool := Nat.ltb i 2.
(*                          from to  m  tout alpha  d_o  len qext text tl ident *)
Definition pb0 : pbranch := mkPB 0 2 1 370 0 (1/10) 100 0 283 0 false.
Definition pb1 : pbranch := mkPB 2 1 (-1) 280 0 (1/10) 100 0 283 0 false.
Definition pb2 : pbranch := mkPB 2 3 2 325 0 (1/10) 100 0 283 0 false.
Definition ex_pbs : list pbranch := [pb0; pb1; pb2].

(* a branch carrying at least 1 kg/s along (against) its declaration flows and is not (is) switched *)
Lemma branch_along tw pb : 1 <= p_m pb ->
  p_flow tw pb = true /\ p_sw pb = false /\ p_fnc pb = p_from pb /\ p_tnc pb = p_to pb.
Proof.
  intros H. split; [apply p_flow_flows; unfold flows; rewrite Rabs_pos_eq; lra|].
  unfold p_fnc, p_tnc, p_sw, dir_switched, switch_threshold.
  destruct (Rltb_spec (p_m pb) (- (1 / 50000000000))); [lra|auto].
Qed.

Lemma branch_against tw pb : p_m pb <= -1 ->
  p_flow tw pb = true /\ p_sw pb = true /\ p_fnc pb = p_to pb /\ p_tnc pb = p_from pb.
Proof.
  intros H. split; [apply p_flow_flows; unfold flows; rewrite Rabs_left; lra|].
  unfold p_fnc, p_tnc, p_sw, dir_switched, switch_threshold.
  destruct (Rltb_spec (p_m pb) (- (1 / 50000000000))); [auto|lra].
Qed.

Lemma ex_b0 : p_flow true pb0 = true /\ p_sw pb0 = false /\ p_fnc pb0 = 0%nat /\ p_tnc pb0 = 2%nat.
Proof. apply branch_along. simpl. lra. Qed.
Lemma ex_b1 : p_flow true pb1 = true /\ p_sw pb1 = true /\ p_fnc pb1 = 1%nat /\ p_tnc pb1 = 2%nat.
Proof. apply branch_against. simpl. lra. Qed.
Lemma ex_b2 : p_flow true pb2 = true /\ p_sw pb2 = false /\ p_fnc pb2 = 2%nat /\ p_tnc pb2 = 3%nat.
Proof. apply branch_along. simpl. lra. Qed.

Lemma inf_ex : forall amb, node_infeed true ex_cp amb ex_T ex_pbs 0 = true /\ node_infeed true ex_cp amb ex_T ex_pbs 1 = true /\
  node_infeed true ex_cp amb ex_T ex_pbs 2 = false /\ node_infeed true ex_cp amb ex_T ex_pbs 3 = false.
Proof.
  intros. destruct ex_b0 as (F0 & _ & A0 & B0), ex_b1 as (F1 & _ & A1 & B1), ex_b2 as (F2 & _ & A2 & B2).
  rewrite !node_infeed_spec. unfold ex_pbs. cbn [existsb]. rewrite F0, F1, F2, A0, A1, A2, B0, B1, B2.
  repeat split.
Qed.

Lemma flow_ex : forall amb i, (i < 4)%nat -> node_flow true ex_cp amb ex_T ex_pbs i = true.
Proof.
  intros amb i Hi. destruct ex_b0 as (F0 & _ & A0 & B0), ex_b1 as (F1 & _ & A1 & B1), ex_b2 as (F2 & _ & A2 & B2).
  rewrite node_flow_spec. unfold ex_pbs. cbn [existsb]. rewrite F0, F1, F2, A0, A1, A2, B0, B1, B2.
  destruct i as [|[|[|[|i]]]]; [reflexivity..|lia].
Qed.

Lemma spec_lossless : forall L d cpb m Text Tin, spec_T_out 0 L d cpb m Text Tin 0 0 = Tin.
Proof.
  intros. unfold spec_T_out. replace (0 * L * PI * d / (cpb * m)) with 0 by (unfold Rdiv; ring).
  rewrite Ropp_0, exp_0. unfold Rdiv. ring.
Qed.

(* the load of a flowing loss-free branch without heat source is inlet minus outlet temperature *)
Lemma lvb_lossless tw cp amb Tn pb :
  p_flow tw pb = true -> p_ident pb = false -> p_alpha pb = 0 -> p_qext pb = 0 -> p_tl pb = 0 ->
  b_lvb (asm_branch tw cp amb Tn pb) = Tn (p_fnc pb) - p_tout pb.
Proof. intros Hf Hid Ha HQ HTL. now rewrite (lvb_law tw cp amb Tn pb Hid), Hf, Ha, HQ, HTL, spec_lossless. Qed.

Theorem example_fixed_point : forall amb, fixed_point true ex_cp amb ex_T ex_isT 4 ex_pbs.
Proof.
  intros amb. unfold fixed_point.
  apply (proj2 (fixed_point_load_zero 0 1 Rplus Rmult Rminus Ropp RTheory _ _)).
  intros r Hr. unfold dim in Hr.
  destruct ex_b0 as (F0 & _ & A0 & B0), ex_b1 as (F1 & _ & A1 & B1), ex_b2 as (F2 & _ & A2 & B2).
  destruct (inf_ex amb) as (I0 & I1 & I2 & I3).
  set (ns := sys_nodes true ex_cp amb ex_T ex_isT 4 ex_pbs) in *.
  set (bs := sys_branches true ex_cp amb ex_T ex_pbs) in *.
  destruct (lt_dec r 4) as [Hn|Hn].
  - (* node rows: feeders 0 and 1 are infeed rows; 2 mixes 370 K and 280 K at equal weights, 3 takes over 325 K *)
    rewrite (eps_node 0 Rplus Ropp ns bs r _ (sys_nodes_nth true ex_cp amb ex_T ex_isT 4 ex_pbs r Hn)).
    change (n_infeed (asm_node true ex_cp amb ex_T ex_isT ex_pbs r)) with (node_infeed true ex_cp amb ex_T ex_pbs r).
    destruct r as [|[|[|[|r]]]]; try lia; rewrite ?I0, ?I1, ?I2, ?I3; try reflexivity.
    all: unfold bs, sys_branches; rewrite insum_mixsum; unfold asm_node, kern, therm_np_fn; cbn [n_loadt].
    all: rewrite (flow_ex amb _ Hn); unfold ex_pbs, mixsum, stream_w, cbar, ex_cp; rewrite F0, F1, F2, B0, B1, B2.
    all: simpl; rewrite ?Rabs_R1, ?(Rabs_left (-1)) by lra; lra.
  - (* branch rows: loss-free, outlet = inlet *)
    assert (Hk : exists k, r = (length ns + k)%nat /\ (k < 3)%nat) by (exists (r - 4)%nat; simpl in *; lia).
    destruct Hk as (k & -> & Hk).
    destruct k as [|[|[|k]]]; try lia.
    + rewrite (eps_branch 0 Rplus Ropp ns bs 0 _ eq_refl), lvb_lossless, A0 by (assumption || reflexivity). simpl. lra.
    + rewrite (eps_branch 0 Rplus Ropp ns bs 1 _ eq_refl), lvb_lossless, A1 by (assumption || reflexivity). simpl. lra.
    + rewrite (eps_branch 0 Rplus Ropp ns bs 2 _ eq_refl), lvb_lossless, A2 by (assumption || reflexivity). simpl. lra.
Qed.

(* the remaining hypotheses of the pipeline theorems hold for the example as well *)
Theorem example_wf : forall amb,
  wf (sys_nodes true ex_cp amb ex_T ex_isT 4 ex_pbs) (sys_branches true ex_cp amb ex_T ex_pbs).
Proof.
  intros amb. destruct (inf_ex amb) as (I0 & I1 & I2 & I3). split.
  - unfold sys_nodes, infeed_nodes, t_nodes. cbn [seq map positions asm_node n_infeed].
    rewrite I0, I1, I2, I3. reflexivity.
  - unfold sys_branches, ex_pbs. cbn [map]. repeat constructor.
Qed.

Theorem example_passive_acyclic :
  Forall (passive true 4 280 370) ex_pbs /\
  (forall pb, In pb ex_pbs -> (p_fnc pb < p_tnc pb)%nat) /\
  (forall t, 0 < ex_cp t).
Proof.
  destruct ex_b0 as (F0 & _ & A0 & B0), ex_b1 as (F1 & _ & A1 & B1), ex_b2 as (F2 & _ & A2 & B2).
  split; [|split].
  - unfold ex_pbs. repeat apply Forall_cons; [| | |apply Forall_nil]; unfold passive;
      (repeat split; try assumption; try reflexivity; simpl; try lra; try lia).
  - intros pb [<-|[<-|[<-|[]]]]; rewrite ?A0, ?B0, ?A1, ?B1, ?A2, ?B2; lia.
  - intros. unfold ex_cp. lra.
Qed.

(* so the global-bounds theorem applies and yields 280 <= T <= 370 for all four nodes *)
Theorem example_global_bounds : forall (amb : R) i, (i < 4)%nat -> 280 <= ex_T i <= 370.
Proof.
  intros amb i Hi. destruct example_passive_acyclic as (Hp & Hr & Hc).
  apply (global_bounds_acyclic_pipeline true ex_cp amb ex_T ex_isT 4 ex_pbs 280 370 (fun i => i) Hc
           (example_fixed_point amb) Hp); auto.
  - intros j Hj Hinf. destruct (inf_ex amb) as (I0 & I1 & I2 & I3).
    destruct j as [|[|[|[|j]]]]; try lia; simpl; try lra; congruence.
  - intros j Hj. apply flow_ex. assumption.
Qed.
