(* C10 - global temperature bounds (maximum principle) over a finite flow graph.

   Abstract setting: nodes 0..n-1 with temperatures T, edges = flowing branches in flow direction (from = the
   flow-corrected from node, to = the flow-corrected to node) with a positive mixing weight, an outlet
   temperature and an ambient temperature.  Hypotheses are exactly the conclusions of the local theorems:
     - every edge's outlet lies between its inlet node temperature and its ambient (local_bounds_branch),
     - every non-infeed node balances its inflows with positive weights (node_mixing_law),
     - infeed nodes and ambient temperatures lie in [lo, hi],
     - every node is downstream of an infeed node ([up]).
   Conclusion: every node temperature and every outlet temperature lies in [lo, hi]. *)
From Coq Require Import Reals Lra Lia List.
Import ListNotations.
Open Scope R_scope.

Record edge := mkEdge { e_from : nat; e_to : nat; e_w : R; e_tout : R; e_text : R }.

Section Global.
  Variable n : nat.
  Variable T : nat -> R.
  Variable infeed : nat -> bool.
  Variable es : list edge.
  Variables lo hi : R.

  Fixpoint gmix (i : nat) (l : list edge) : R :=
    match l with
    | [] => 0
    | e :: r => (if Nat.eqb (e_to e) i then e_w e * (e_tout e - T i) else 0) + gmix i r
    end.

  (* i is downstream of an infeed node along edges *)
  Inductive up : nat -> Prop :=
  | up_feed : forall i, infeed i = true -> up i
  | up_edge : forall e, In e es -> up (e_from e) -> up (e_to e).

  Hypothesis H_range : forall e, In e es -> (e_from e < n)%nat /\ (e_to e < n)%nat.
  Hypothesis H_w : forall e, In e es -> 0 < e_w e.
  Hypothesis H_feed : forall i, (i < n)%nat -> infeed i = true -> lo <= T i <= hi.
  Hypothesis H_text : forall e, In e es -> lo <= e_text e <= hi.
  Hypothesis H_branch : forall e, In e es ->
    Rmin (T (e_from e)) (e_text e) <= e_tout e <= Rmax (T (e_from e)) (e_text e).
  Hypothesis H_mix : forall i, (i < n)%nat -> infeed i = false -> gmix i es = 0.

  Lemma gmix_nonpos : forall i l, Forall (fun e => 0 < e_w e /\ e_tout e <= T i) l -> gmix i l <= 0.
  Proof.
    intros i l H. induction H as [|e l [Hw Hle] _ IH]; simpl; [lra|].
    destruct (Nat.eqb (e_to e) i); [|lra]. assert (0 <= e_w e * (T i - e_tout e)) by (apply Rmult_le_pos; lra). lra.
  Qed.

  (* a zero sum of non-positive terms: every term is zero *)
  Lemma gmix_zero_tight : forall i l, Forall (fun e => 0 < e_w e /\ e_tout e <= T i) l ->
    gmix i l = 0 -> Forall (fun e => e_to e = i -> e_tout e = T i) l.
  Proof.
    intros i l H. induction H as [|e l [Hw Hle] Hl IH]; simpl; intros Hs; constructor;
      pose proof (gmix_nonpos i l Hl) as Hrest;
      assert (Hterm : 0 <= e_w e * (T i - e_tout e)) by (apply Rmult_le_pos; lra).
    - intros Hto. rewrite Hto, Nat.eqb_refl in Hs.
      assert (Hz : e_w e * (T i - e_tout e) = 0) by lra. apply Rmult_integral in Hz. lra.
    - apply IH. destruct (Nat.eqb (e_to e) i); lra.
  Qed.

  Lemma up_lt : forall i, up i -> (forall j, infeed j = true -> (j < n)%nat) -> (i < n)%nat.
  Proof. intros i H Hf. destruct H; [auto|]. apply H_range; assumption. Qed.

  (* an upper bound M of all node temperatures that is attained at a node downstream of a feed is <= hi *)
  Lemma max_le_hi : forall M, (forall j, (j < n)%nat -> T j <= M) ->
    forall i, up i -> (i < n)%nat -> T i = M -> M <= hi.
  Proof.
    intros M HM i Hup. induction Hup as [i Hf|e Hin Hup IH]; intros Hi HT.
    - rewrite <- HT. apply H_feed; assumption.
    - destruct (Rle_or_lt M hi) as [|Hgt]; [assumption|]. exfalso.
      (* no outlet exceeds M, and an outlet at M has its inlet node at M, the ambient being below M *)
      assert (Hout : forall e', In e' es -> e_tout e' <= M /\ (e_tout e' = M -> T (e_from e') = M)).
      { intros e' Hin'. destruct (H_branch e' Hin') as [_ Hb]. destruct (H_range e' Hin') as [Hf' _].
        pose proof (HM _ Hf'). pose proof (H_text e' Hin').
        unfold Rmax in Hb. destruct (Rle_dec (T (e_from e')) (e_text e')); lra. }
      assert (Hnf : infeed (e_to e) = false).
      { destruct (infeed (e_to e)) eqn:E; [|reflexivity]. pose proof (H_feed _ Hi E). lra. }
      assert (Hall : Forall (fun e' => 0 < e_w e' /\ e_tout e' <= T (e_to e)) es).
      { apply Forall_forall. intros e' Hin'. split; [apply H_w|rewrite HT; apply Hout]; assumption. }
      pose proof (gmix_zero_tight _ _ Hall (H_mix _ Hi Hnf)) as Htight. rewrite Forall_forall in Htight.
      destruct (H_range e Hin) as [Hfr _].
      assert (T (e_from e) = M) by (apply Hout; [assumption|]; rewrite <- HT; now apply Htight).
      pose proof (IH Hfr H). lra.
  Qed.

  (* a finite family attains its maximum *)
  Lemma attains_max : forall k, (0 < k)%nat -> exists i, (i < k)%nat /\ forall j, (j < k)%nat -> T j <= T i.
  Proof.
    induction k as [|k IH]; intros Hk; [lia|]. destruct k as [|k].
    - exists 0%nat. split; [lia|]. intros j Hj. replace j with 0%nat by lia. lra.
    - destruct (IH ltac:(lia)) as [i [Hi Hmax]]. destruct (Rle_or_lt (T (S k)) (T i)).
      + exists i. split; [lia|]. intros j Hj. destruct (Nat.eq_dec j (S k)) as [->|]; [assumption|apply Hmax; lia].
      + exists (S k). split; [lia|]. intros j Hj. destruct (Nat.eq_dec j (S k)) as [->|]; [lra|].
        pose proof (Hmax j ltac:(lia)). lra.
  Qed.

  Hypothesis H_up : forall i, (i < n)%nat -> up i.

  Lemma upper_bound_nodes : forall i, (i < n)%nat -> T i <= hi.
  Proof.
    intros i Hi. destruct (attains_max n ltac:(lia)) as [a [Ha Hmax]].
    pose proof (max_le_hi (T a) Hmax a (H_up a Ha) Ha eq_refl). pose proof (Hmax i Hi). lra.
  Qed.
End Global.

(* the lower bound is the upper bound of the negated temperatures *)
Definition neg_edge (e : edge) : edge := mkEdge (e_from e) (e_to e) (e_w e) (- e_tout e) (- e_text e).

Lemma gmix_neg T i l : gmix (fun j => - T j) i (map neg_edge l) = - gmix T i l.
Proof. induction l as [|e l IH]; simpl; [lra|]. rewrite IH. destruct (Nat.eqb (e_to e) i); lra. Qed.

Lemma up_neg infeed es i : up infeed es i -> up infeed (map neg_edge es) i.
Proof.
  induction 1 as [i Hf|e Hin _ IH]; [now apply up_feed|].
  apply (up_edge infeed _ (neg_edge e)); [now apply in_map|exact IH].
Qed.

Theorem global_bounds_nodes : forall n T infeed es lo hi,
  (forall e, In e es -> (e_from e < n)%nat /\ (e_to e < n)%nat) ->
  (forall e, In e es -> 0 < e_w e) ->
  (forall i, (i < n)%nat -> infeed i = true -> lo <= T i <= hi) ->
  (forall e, In e es -> lo <= e_text e <= hi) ->
  (forall e, In e es -> Rmin (T (e_from e)) (e_text e) <= e_tout e <= Rmax (T (e_from e)) (e_text e)) ->
  (forall i, (i < n)%nat -> infeed i = false -> gmix T i es = 0) ->
  (forall i, (i < n)%nat -> up infeed es i) ->
  forall i, (i < n)%nat -> lo <= T i <= hi.
Proof.
  intros n T infeed es lo hi H_range H_w H_feed H_text H_branch H_mix H_up i Hi. split.
  - assert (Hneg : forall e', In e' (map neg_edge es) -> exists e, In e es /\ e' = neg_edge e).
    { intros e' H. apply in_map_iff in H. destruct H as (e & <- & H). now exists e. }
    apply Ropp_le_cancel.
    apply (upper_bound_nodes n (fun j => - T j) infeed (map neg_edge es) (- hi) (- lo)); try assumption.
    + intros e' H. destruct (Hneg e' H) as (e & He & ->). exact (H_range e He).
    + intros e' H. destruct (Hneg e' H) as (e & He & ->). exact (H_w e He).
    + intros j Hj Hf. specialize (H_feed j Hj Hf). lra.
    + intros e' H. destruct (Hneg e' H) as (e & He & ->). specialize (H_text e He). simpl. lra.
    + intros e' H. destruct (Hneg e' H) as (e & He & ->). specialize (H_branch e He). simpl.
      rewrite <- Ropp_Rmax, <- Ropp_Rmin. lra.
    + intros j Hj Hf. rewrite gmix_neg, H_mix by assumption. lra.
    + intros j Hj. now apply up_neg, H_up.
  - now apply (upper_bound_nodes n T infeed es lo hi).
Qed.

(* an outlet lies between its inlet node and its ambient, both of which lie in [lo, hi] *)
Theorem global_bounds_outlets : forall n T es lo hi,
  (forall e, In e es -> (e_from e < n)%nat /\ (e_to e < n)%nat) ->
  (forall i, (i < n)%nat -> lo <= T i <= hi) ->
  (forall e, In e es -> lo <= e_text e <= hi) ->
  (forall e, In e es -> Rmin (T (e_from e)) (e_text e) <= e_tout e <= Rmax (T (e_from e)) (e_text e)) ->
  forall e, In e es -> lo <= e_tout e <= hi.
Proof.
  intros n T es lo hi H_range H_nodes H_text H_branch e Hin.
  destruct (H_range e Hin) as [Hf _]. pose proof (H_nodes _ Hf).
  pose proof (H_text e Hin). destruct (H_branch e Hin) as [H1 H2].
  unfold Rmin, Rmax in *. destruct (Rle_dec (T (e_from e)) (e_text e)); lra.
Qed.

(* [up] from a checkable condition: the flow graph is acyclic (a rank strictly increases along every edge - e.g.
   the pressure ordering of a net of passive branches) and every node that is not an infeed node has an inflow
   (true by the definition of the kernel's infeed set for every node touched by flow).  Then every node is
   downstream of an infeed node. *)
Section Acyclic.
  Variable n : nat.
  Variable infeed : nat -> bool.
  Variable es : list edge.
  Variable rank : nat -> nat.
  Hypothesis H_range : forall e, In e es -> (e_from e < n)%nat /\ (e_to e < n)%nat.
  Hypothesis H_rank : forall e, In e es -> (rank (e_from e) < rank (e_to e))%nat.
  Hypothesis H_inflow : forall i, (i < n)%nat -> infeed i = false -> exists e, In e es /\ e_to e = i.

  Theorem up_from_rank : forall i, (i < n)%nat -> up infeed es i.
  Proof.
    assert (H : forall k i, rank i = k -> (i < n)%nat -> up infeed es i).
    { induction k as [k IH] using lt_wf_ind. intros i Hk Hi.
      destruct (infeed i) eqn:E; [apply up_feed; assumption|].
      destruct (H_inflow i Hi E) as [e [Hin Hto]]. rewrite <- Hto. apply up_edge; [assumption|].
      apply (IH (rank (e_from e))); [|reflexivity|apply H_range; assumption].
      rewrite <- Hk, <- Hto. apply H_rank. assumption. }
    intros i Hi. apply (H (rank i) i eq_refl Hi).
  Qed.
End Acyclic.
