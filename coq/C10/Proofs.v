(* C10 - theorems over R: generated thermal kernels (Gen/KThermNp, KThermNb), generated expression block of
   calculate_derivatives_thermal (Gen/KThermExpr), generated circulation-pump hook (Gen/KHooksHeat), composed
   with the hand model of the assembly (C10/Model, proved in C10/Assembly) into the thermal pipeline of one
   solve_temperature call. *)
From Coq Require Import Reals Lra Lia List Bool.
From PP Require Import Kern.RBool Gen.KThermNp Gen.KThermNb Gen.KThermExpr Gen.KHooksHeat C10.Spec C10.Model C10.Assembly.
Import ListNotations.
Open Scope R_scope.

Definition flows (m : R) : Prop := 1 / 10000000000 < Rabs m.

Lemma flows_reflect m : reflect (flows m) (branches_flow_np_flow m).
Proof.
  unfold flows, branches_flow_np_flow. destruct (Rleb_spec (Rabs m) (1 / 10000000000)); constructor; lra.
Qed.

Lemma flow_twin m : branches_flow_nb_flow m = branches_flow_np_flow m.
Proof. apply Rltb_negb_Rleb. Qed.

(* the generated branch residual, both cases at once: the outlet temperature of the documented law for a
   flowing branch, the ambient option for a stagnant one, minus the outlet temperature *)
Lemma fb_law : forall amb al d L m Q Text TL cpb cpn nf ti ti1 tn tnt,
  therm_np_fb amb al d L m Q Text TL cpb cpn nf ti ti1 tn tnt =
  (if branches_flow_np_flow m then spec_T_out al L d cpb (Rabs m) Text ti TL Q else amb) - ti1.
Proof.
  intros. unfold therm_np_fb, branches_flow_np_flow. cbv zeta.
  destruct (Rleb (Rabs m) (1 / 10000000000)); simpl; [ring|].
  (* the exponent is brought to the form of the specification, the rest is by ring, so that the order of operands in
     the source does not matter; c_p |m| stands under an inverse, where ring does not look *)
  pose proof (f_equal Rinv (Rmult_comm cpb (Rabs m))) as Hinv.
  rewrite (f_equal exp (y := - (al * L * PI * d / (cpb * Rabs m)))) by (unfold Rdiv; ring [Hinv]).
  unfold spec_T_out, Rdiv. ring [Hinv].
Qed.

Lemma fb_law_numba : forall amb al d L m Q Text TL cpb cpn nf ti ti1 tn tnt,
  therm_nb_fb amb al d L m Q Text TL cpb cpn nf ti ti1 tn tnt =
  (if branches_flow_np_flow m then spec_T_out al L d cpb (Rabs m) Text ti TL Q else amb) - ti1.
Proof.
  intros. unfold therm_nb_fb, branches_flow_np_flow. cbv zeta. rewrite Rltb_negb_Rleb.
  destruct (Rleb (Rabs m) (1 / 10000000000)); simpl; [ring|].
  pose proof (f_equal Rinv (Rmult_comm cpb (Rabs m))) as Hinv.
  rewrite (f_equal exp (y := - (al * L * PI * d / (cpb * Rabs m)))) by (unfold Rdiv; ring [Hinv]).
  unfold spec_T_out, Rdiv. ring [Hinv].
Qed.

Lemma fb_twin : forall amb al d L m Q Text TL cpb cpn nf ti ti1 tn tnt,
  therm_nb_fb amb al d L m Q Text TL cpb cpn nf ti ti1 tn tnt =
  therm_np_fb amb al d L m Q Text TL cpb cpn nf ti ti1 tn tnt.
Proof. intros. rewrite fb_law_numba, fb_law. reflexivity. Qed.

(* the heat capacities of calculate_derivatives_thermal: by [lra], not by conversion, so that the generated
   expression may be written another way round *)

(* the mixing weight is the arithmetic mean of c_p at the stream outlet and at the mixing node ... *)
Theorem mixing_cp_is_mean : forall tout cp tfrom tto,
  thermexpr_cp_n tout cp tfrom tto = cbar cp tout tto.
Proof. intros. unfold thermexpr_cp_n, cbar. cbv zeta. lra. Qed.

(* ... the branch heat capacity is the same mean between inlet node and outlet, and it is get_branch_cp *)
Theorem branch_cp_is_mean : forall tout cp tfrom tto,
  thermexpr_cp_b tout cp tfrom tto = cbar cp tfrom tout /\
  thermexpr_cp_b tout cp tfrom tto = branch_cp_cp tout cp tfrom.
Proof. intros. unfold thermexpr_cp_b, branch_cp_cp, cbar. cbv zeta. split; lra. Qed.

(* the thermal pipeline of one solve_temperature call, as a function of the physical state *)

Record pbranch := mkPB {
  p_from : nat; p_to : nat;          (* FROM_NODE, TO_NODE as declared *)
  p_m : R;                           (* MDOTINIT (signed, from the hydraulic solution) *)
  p_tout : R;                        (* TOUTINIT *)
  p_alpha : R; p_do : R; p_len : R; p_qext : R; p_text : R; p_tl : R;
  p_ident : bool                     (* circulation pump: adaption_after_derivatives_thermal overrides the row *)
}.

(* a generated thermal kernel output; the 15 positions are those of Gen.KThermExpr.therm_kernel_inputs:
   amb ALPHA DO LENGTH MDOTINIT QEXT TEXT TL cp_b cp_n nodes_flow t_init_i t_init_i1 t_init_n t_init_nt *)
Definition ksig := R -> R -> R -> R -> R -> R -> R -> R -> R -> R -> bool -> R -> R -> R -> R -> R.

Lemma existsb_map {X Y} (f : Y -> bool) (g : X -> Y) l : existsb f (map g l) = existsb (fun x => f (g x)) l.
Proof. induction l; simpl; auto. now rewrite IHl. Qed.

Section Pipeline.
  Variable tw : bool.                (* true: numpy kernels, false: numba kernels *)
  Variable cp : R -> R.              (* fluid.get_heat_capacity *)
  Variable amb : R.                  (* option ambient_temperature *)
  Variable Tn : nat -> R.            (* node_pit[:, TINIT] *)
  Variable isT : nat -> bool.        (* node_pit[:, NODE_TYPE_T] == T *)
  Variable n : nat.                  (* number of nodes *)

  Definition kern (knp knb : ksig) : ksig := if tw then knp else knb.

  Definition p_sw (pb : pbranch) : bool := dir_switched (p_m pb).        (* solve_temperature *)
  Definition p_fnc (pb : pbranch) : nat := if p_sw pb then p_to pb else p_from pb.
  Definition p_tnc (pb : pbranch) : nat := if p_sw pb then p_from pb else p_to pb.
  Definition p_flow (pb : pbranch) : bool :=
    if tw then branches_flow_np_flow (p_m pb) else branches_flow_nb_flow (p_m pb).

  (* [nf] (nodes_flow) and [tn] (t_init_n) are per-node inputs, which no per-branch output reads: [asm_branch] passes
     dummies *)
  Definition kcall (k : ksig) (pb : pbranch) (nf : bool) (tn : R) : R :=
    let ti := thermexpr_t_init_i (p_tout pb) cp (Tn (p_fnc pb)) (Tn (p_tnc pb)) in
    let ti1 := thermexpr_t_init_i1 (p_tout pb) cp (Tn (p_fnc pb)) (Tn (p_tnc pb)) in
    let tnt := thermexpr_t_init_nt (p_tout pb) cp (Tn (p_fnc pb)) (Tn (p_tnc pb)) in
    let cpn := thermexpr_cp_n (p_tout pb) cp (Tn (p_fnc pb)) (Tn (p_tnc pb)) in
    let cpb := thermexpr_cp_b (p_tout pb) cp (Tn (p_fnc pb)) (Tn (p_tnc pb)) in
    k amb (p_alpha pb) (p_do pb) (p_len pb) (p_m pb) (p_qext pb) (p_text pb) (p_tl pb) cpb cpn nf ti ti1 tn tnt.

  Definition asm_branch (pb : pbranch) : @tbranch R :=
    mkTBranch (p_from pb) (p_to pb) (p_sw pb)
      (if p_ident pb then cp_at_JAC_DERIV_DT else kcall (kern therm_np_dfb_dt therm_nb_dfb_dt) pb true 0)
      (if p_ident pb then cp_at_JAC_DERIV_DTOUT else kcall (kern therm_np_dfb_dtout therm_nb_dfb_dtout) pb true 0)
      (kcall (kern therm_np_dfnt_dt therm_nb_dfnt_dt) pb true 0)
      (kcall (kern therm_np_dfnt_dtout therm_nb_dfnt_dtout) pb true 0)
      (if p_ident pb then cp_at_LOAD_VEC_BRANCHES_T else kcall (kern therm_np_fb therm_nb_fb) pb true 0)
      (kcall (kern therm_np_fnt therm_nb_fnt) pb true 0).

  Variable pbs : list pbranch.

  Definition bf : list (@tbranch R * bool) := map (fun pb => (asm_branch pb, p_flow pb)) pbs.
  Definition node_flow (i : nat) : bool := g_touches bf i.
  Definition node_infeed (i : nat) : bool := g_infeed bf i.

  (* the per-node kernel outputs do not read the per-branch inputs: they are called with dummies *)
  Definition asm_node (i : nat) : @tnode R :=
    mkTNode (kern therm_np_fn therm_nb_fn amb 0 0 0 0 0 0 0 0 0 (node_flow i) 0 0 (Tn i) 0)
            (kern therm_np_dfn_dt therm_nb_dfn_dt amb 0 0 0 0 0 0 0 0 0 (node_flow i) 0 0 (Tn i) 0)
            (node_infeed i) (isT i).

  Definition sys_nodes : list (@tnode R) := map asm_node (seq 0 n).
  Definition sys_branches : list (@tbranch R) := map asm_branch pbs.

  Definition fixed_point : Prop :=
    solves 0 1 Rplus Rmult Ropp sys_nodes sys_branches (fun _ => 0).

  (* weight of stream pb in the mixing equation of its (corrected) to node; only the numpy kernel multiplies fnt by the
     flow mask, the numba kernel leaves the term of a stagnant branch in *)
  Definition stream_w (pb : pbranch) : R :=
    (if tw then (if p_flow pb then 1 else 0) else 1) * cbar cp (p_tout pb) (Tn (p_tnc pb)) * Rabs (p_m pb).

  Fixpoint mixsum (i : nat) (l : list pbranch) : R :=
    match l with
    | [] => 0
    | pb :: r => (if Nat.eqb (p_tnc pb) i then stream_w pb * (p_tout pb - Tn i) else 0) + mixsum i r
    end.

  Lemma sys_nodes_nth i : (i < n)%nat -> nth_error sys_nodes i = Some (asm_node i).
  Proof.
    intros H. unfold sys_nodes. rewrite nth_error_map, nth_error_nth' with (d := O) by (rewrite seq_length; lia).
    rewrite seq_nth by lia. reflexivity.
  Qed.

  Lemma sys_branches_nth k pb : nth_error pbs k = Some pb -> nth_error sys_branches k = Some (asm_branch pb).
  Proof. intros H. unfold sys_branches. now rewrite nth_error_map, H. Qed.

  (* the kernel's graph predicates, read off the physical branches *)
  Lemma node_infeed_spec i :
    node_infeed i =
    existsb (fun pb => p_flow pb && Nat.eqb (p_fnc pb) i) pbs &&
    negb (existsb (fun pb => p_flow pb && Nat.eqb (p_tnc pb) i) pbs).
  Proof. unfold node_infeed, g_infeed, bf. rewrite !existsb_map. reflexivity. Qed.

  Lemma node_flow_spec i :
    node_flow i = existsb (fun pb => p_flow pb && (Nat.eqb (p_fnc pb) i || Nat.eqb (p_tnc pb) i)) pbs.
  Proof. unfold node_flow, g_touches, bf. rewrite !existsb_map. reflexivity. Qed.

  Lemma p_flow_np pb : p_flow pb = branches_flow_np_flow (p_m pb).
  Proof. unfold p_flow. destruct tw; [reflexivity|apply flow_twin]. Qed.

  Lemma p_flow_flows pb : p_flow pb = true <-> flows (p_m pb).
  Proof. rewrite p_flow_np. symmetry. apply reflect_iff, flows_reflect. Qed.

  Lemma fnc_asm_branch pb : fnc (asm_branch pb) = p_fnc pb.
  Proof. reflexivity. Qed.

  Lemma tnc_asm_branch pb : tnc (asm_branch pb) = p_tnc pb.
  Proof. reflexivity. Qed.

  Lemma lvnt_stream pb : b_lvnt (asm_branch pb) = stream_w pb * (p_tout pb - Tn (p_tnc pb)).
  Proof.
    unfold stream_w. rewrite p_flow_np. unfold asm_branch, kcall, kern; simpl.
    rewrite mixing_cp_is_mean. unfold thermexpr_t_init_i1, thermexpr_t_init_nt. destruct tw.
    - unfold therm_np_fnt, branches_flow_np_flow. cbv zeta.
      destruct (Rleb (Rabs (p_m pb)) (1 / 10000000000)); simpl; ring.
    - unfold therm_nb_fnt. cbv zeta. ring.
  Qed.

  Lemma lvb_law pb : p_ident pb = false ->
    b_lvb (asm_branch pb) =
    (if p_flow pb
     then spec_T_out (p_alpha pb) (p_len pb) (p_do pb) (cbar cp (Tn (p_fnc pb)) (p_tout pb))
                     (Rabs (p_m pb)) (p_text pb) (Tn (p_fnc pb)) (p_tl pb) (p_qext pb)
     else amb) - p_tout pb.
  Proof.
    intros Hid. rewrite p_flow_np. unfold asm_branch. cbn [b_lvb]. rewrite Hid. unfold kcall, kern.
    rewrite (proj1 (branch_cp_is_mean _ _ _ _)). destruct tw; [|rewrite fb_twin]; apply fb_law.
  Qed.

  Lemma insum_mixsum i : forall l k0,
    insum 0 Rplus (@lvnt_ R) i k0 (map asm_branch l) = mixsum i l.
  Proof.
    induction l as [|pb l IH]; intros k0; [reflexivity|].
    cbn [map insum mixsum]. rewrite IH, tnc_asm_branch. unfold lvnt_. rewrite lvnt_stream.
    destruct (Nat.eqb_spec (p_tnc pb) i) as [->|]; reflexivity.
  Qed.

  (* the mixing row of a node that is not an infeed node, at a fixed point of the thermal iteration *)
  Lemma node_row_pipeline : forall i,
    fixed_point -> (i < n)%nat -> node_infeed i = false ->
    mixsum i pbs = if node_flow i then 0 else amb - Tn i.
  Proof.
    intros i Hfp Hi Hinf.
    pose proof (fixed_point_node_row 0 1 Rplus Rmult Rminus Ropp RTheory sys_nodes sys_branches i (asm_node i)
                  Hfp (sys_nodes_nth i Hi) Hinf) as H.
    unfold sys_branches in H. rewrite insum_mixsum in H. rewrite H.
    unfold asm_node, kern; simpl. destruct tw, (node_flow i); reflexivity.
  Qed.

  (* property clause "energy-conserving mixing": at a fixed point of the thermal iteration every node with flow
     that is not an infeed node balances the incoming streams, weighted by |m| times the mean of c_p at stream
     outlet temperature and node temperature *)
  Theorem node_mixing_law_pipeline : forall i,
    fixed_point -> (i < n)%nat -> node_infeed i = false -> node_flow i = true -> mixsum i pbs = 0.
  Proof. intros i Hfp Hi Hinf Hfl. now rewrite (node_row_pipeline i Hfp Hi Hinf), Hfl. Qed.

  (* property clause "cooling law", pipeline form: at a fixed point every flowing branch that is not a
     circulation pump has its outlet temperature on the documented law, with inlet = temperature of the
     flow-corrected from node and c_p = mean between inlet node and outlet; stagnant branches sit at ambient *)
  Theorem branch_cooling_law_pipeline : forall k pb,
    fixed_point -> nth_error pbs k = Some pb -> p_ident pb = false ->
    (p_flow pb = true ->
       p_tout pb = spec_T_out (p_alpha pb) (p_len pb) (p_do pb) (cbar cp (Tn (p_fnc pb)) (p_tout pb))
                              (Rabs (p_m pb)) (p_text pb) (Tn (p_fnc pb)) (p_tl pb) (p_qext pb)) /\
    (p_flow pb = false -> p_tout pb = amb).
  Proof.
    intros k pb Hfp Hk Hid.
    pose proof (fixed_point_branch_row 0 1 Rplus Rmult Rminus Ropp RTheory sys_nodes sys_branches k _ Hfp
                  (sys_branches_nth k pb Hk)) as H.
    rewrite (lvb_law pb Hid) in H. split; intros Hf; rewrite Hf in H; lra.
  Qed.
End Pipeline.

(* direction switch at the physical level: a branch declared against the flow gives the same equations as the
   same branch declared along the flow *)

Definition reverse_decl (pb : pbranch) : pbranch :=
  mkPB (p_to pb) (p_from pb) (- p_m pb) (p_tout pb) (p_alpha pb) (p_do pb) (p_len pb) (p_qext pb) (p_text pb)
       (p_tl pb) (p_ident pb).

(* a flowing branch (|m| > 1e-10) is switched exactly when its flow is negative: the switch threshold -2e-11 lies inside
   the stagnant band *)
Lemma flowing_direction m : flows m -> (m < 0 /\ dir_switched m = true) \/ (0 < m /\ dir_switched m = false).
Proof.
  unfold flows, dir_switched, switch_threshold. intros H.
  destruct (Rltb_spec m (- (1 / 50000000000))) as [Hs|Hs]; [left | right]; split; try reflexivity.
  - lra.
  - destruct (Rle_or_lt m 0) as [Hm|Hm]; [|exact Hm]. rewrite Rabs_left1 in H by exact Hm. lra.
Qed.

Lemma dir_switched_opp m : flows m -> dir_switched (- m) = negb (dir_switched m).
Proof.
  intros H. assert (H' : flows (- m)) by (unfold flows; rewrite Rabs_Ropp; exact H).
  destruct (flowing_direction m H) as [[Hm ->]|[Hm ->]], (flowing_direction (- m) H') as [[Hm' ->]|[Hm' ->]];
    try reflexivity; lra.
Qed.

Lemma p_fnc_reverse pb : flows (p_m pb) -> p_fnc (reverse_decl pb) = p_fnc pb.
Proof.
  intros Hf. unfold p_fnc, p_sw, reverse_decl; simpl. rewrite dir_switched_opp by assumption.
  now destruct (dir_switched (p_m pb)).
Qed.

Lemma p_tnc_reverse pb : flows (p_m pb) -> p_tnc (reverse_decl pb) = p_tnc pb.
Proof.
  intros Hf. unfold p_tnc, p_sw, reverse_decl; simpl. rewrite dir_switched_opp by assumption.
  now destruct (dir_switched (p_m pb)).
Qed.

(* the kernels read the mass flow only through its absolute value, so the reversed declaration assembles to the
   same row with from and to node exchanged and the switch flag flipped: [redeclare] of C10/Assembly *)
Theorem asm_branch_reverse tw cp amb Tn pb :
  flows (p_m pb) -> asm_branch tw cp amb Tn (reverse_decl pb) = redeclare (asm_branch tw cp amb Tn pb).
Proof.
  intros Hf. unfold asm_branch, redeclare, kcall. cbn [b_from b_to b_sw b_jdt b_jdtout b_jdtn b_jdtoutn b_lvb b_lvnt].
  rewrite (p_fnc_reverse pb Hf), (p_tnc_reverse pb Hf).
  unfold p_sw at 1. cbn [reverse_decl p_from p_to p_m p_tout p_alpha p_do p_len p_qext p_text p_tl p_ident].
  rewrite (dir_switched_opp _ Hf). fold (p_sw pb).
  destruct tw; unfold kern, therm_np_dfb_dt, therm_np_dfb_dtout, therm_np_dfnt_dt, therm_np_dfnt_dtout, therm_np_fb,
    therm_np_fnt, therm_nb_dfb_dt, therm_nb_dfb_dtout, therm_nb_dfnt_dt, therm_nb_dfnt_dtout, therm_nb_fb, therm_nb_fnt;
    cbv zeta; rewrite Rabs_Ropp; reflexivity.
Qed.

Lemma exp_neg_le_1 : forall x, 0 <= x -> 0 < exp (- x) <= 1.
Proof.
  intros x Hx. split; [apply exp_pos|].
  destruct (Rle_lt_or_eq_dec 0 x Hx) as [H|<-].
  - left. rewrite <- exp_0. apply exp_increasing. lra.
  - rewrite Ropp_0, exp_0. lra.
Qed.

(* the slope of the documented law in the inlet temperature lies in (0, 1] *)
Lemma cooling_slope al L d cpb m : 0 <= al -> 0 <= L -> 0 <= d -> 0 < cpb -> 0 < m ->
  0 < exp (- (al * L * PI * d / (cpb * m))) <= 1.
Proof.
  intros Ha HL Hd Hc Hm. apply exp_neg_le_1.
  apply Rmult_le_pos; [|left; apply Rinv_0_lt_compat; apply Rmult_lt_0_compat; assumption].
  pose proof PI_RGT_0. apply Rmult_le_pos; [apply Rmult_le_pos; [apply Rmult_le_pos|]|]; lra.
Qed.

(* no heat source on the branch (Q = 0, TL = 0), non-negative loss coefficient: the outlet temperature of a
   flowing branch lies between its inlet temperature and the temperature of its surroundings *)
Theorem branch_local_bounds : forall al L d cpb m Text Tin Tout,
  0 <= al -> 0 <= L -> 0 <= d -> 0 < cpb -> 0 < m ->
  Tout = spec_T_out al L d cpb m Text Tin 0 0 ->
  Rmin Tin Text <= Tout <= Rmax Tin Text.
Proof.
  intros al L d cpb m Text Tin Tout Ha HL Hd Hc Hm ->. unfold spec_T_out.
  destruct (cooling_slope al L d cpb m Ha HL Hd Hc Hm) as [H0 H1].
  set (E := exp (- (al * L * PI * d / (cpb * m)))) in *.
  unfold Rmin, Rmax. replace (0 / (cpb * m)) with 0 by (unfold Rdiv; ring).
  destruct (Rle_dec Tin Text); split; nra.
Qed.

Fixpoint wsum (l : list (R * R)) : R := match l with [] => 0 | (w, _) :: r => w + wsum r end.
Fixpoint wres (T : R) (l : list (R * R)) : R :=
  match l with [] => 0 | (w, t) :: r => w * (t - T) + wres T r end.

Lemma wres_bounds : forall lo hi T l,
  Forall (fun wt => 0 <= fst wt /\ lo <= snd wt <= hi) l ->
  (lo - T) * wsum l <= wres T l <= (hi - T) * wsum l.
Proof.
  intros lo hi T l H. induction H as [|[w t] l [Hw Ht] _ IH]; simpl in *; [lra|]. nra.
Qed.

(* the pipeline's mixing sum is such a weighted residual: weights |m| * cbar (>= 0 when c_p >= 0) *)
Definition streams_of tw cp Tn i (l : list pbranch) : list (R * R) :=
  map (fun pb => (stream_w tw cp Tn pb, p_tout pb)) (filter (fun pb => Nat.eqb (p_tnc pb) i) l).

Lemma mixsum_wres tw cp Tn i l : mixsum tw cp Tn i l = wres (Tn i) (streams_of tw cp Tn i l).
Proof.
  unfold streams_of. induction l as [|pb l IH]; simpl; [reflexivity|].
  destruct (Nat.eqb (p_tnc pb) i); simpl; rewrite IH; ring.
Qed.

Lemma stream_w_nonneg tw cp Tn pb : (forall t, 0 <= cp t) -> 0 <= stream_w tw cp Tn pb.
Proof.
  intros Hcp. unfold stream_w, cbar.
  assert (0 <= (cp (p_tout pb) + cp (Tn (p_tnc pb))) / 2) by (pose proof (Hcp (p_tout pb)); pose proof (Hcp (Tn (p_tnc pb))); lra).
  pose proof (Rabs_pos (p_m pb)).
  destruct tw; [destruct (p_flow true pb)|]; repeat apply Rmult_le_pos; lra.
Qed.
