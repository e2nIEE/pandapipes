(* C10 - proofs about the assembled thermal system (generic commutative ring; instantiates at Z and R;
   closed under the global context). *)
From Coq Require Import List Arith Lia Ring.
From PP Require Import C10.Model.
Import ListNotations.

Section Assembly.
  Context {A : Type} (zero one : A) (add mul sub : A -> A -> A) (opp : A -> A)
          (Rth : ring_theory zero one add mul sub opp eq).
  Add Ring Aring : Rth.

  Notation "0" := zero.
  Notation "1" := one.
  Infix "+" := add.
  Infix "*" := mul.
  Infix "-" := sub.
  Notation "- x" := (opp x).

  Notation tnode := (@tnode A).
  Notation tbranch := (@tbranch A).
  Notation trip := (@trip A).
  Notation rowsum := (rowsum zero add mul).
  Notation insum := (insum zero add).
  Notation trips := (trips one).
  Notation eps := (eps zero add opp).
  Notation eps_nodes := (eps_nodes zero add opp).
  Notation solves := (solves zero one add mul opp).
  Notation fixed_trips := (fixed_trips one).

  Lemma mapi_length {X Y} (f : nat -> X -> Y) k0 l : length (mapi f k0 l) = length l.
  Proof. revert k0; induction l; simpl; intros; auto. Qed.

  Lemma mapi_nth_error {X Y} (f : nat -> X -> Y) l : forall k0 i,
    nth_error (mapi f k0 l) i = option_map (f (k0 + i)%nat) (nth_error l i).
  Proof.
    induction l as [|a l IH]; intros k0 i; destruct i; simpl; auto.
    - now rewrite Nat.add_0_r.
    - rewrite IH. now replace (S k0 + i)%nat with (k0 + S i)%nat by lia.
  Qed.

  Lemma mapi_ext {X Y} (f g : nat -> X -> Y) l : (forall i x, f i x = g i x) ->
    forall k0, mapi f k0 l = mapi g k0 l.
  Proof. intros H. induction l; intros k0; simpl; auto. now rewrite H, IHl. Qed.

  Lemma positions_spec {X} (p : X -> bool) l : forall k0 s,
    In s (positions p k0 l) <-> exists i x, s = (k0 + i)%nat /\ nth_error l i = Some x /\ p x = true.
  Proof.
    induction l as [|a l IH]; intros k0 s; simpl.
    - split; [tauto|]. intros (i & x & _ & H & _). destruct i; discriminate.
    - rewrite in_app_iff, IH. split.
      + intros [H|(i & x & -> & H2 & H3)].
        * destruct (p a) eqn:E; [|destruct H]. destruct H as [<-|[]].
          exists 0%nat, a. now rewrite Nat.add_0_r.
        * exists (S i), x. split; [lia|auto].
      + intros (i & x & -> & H2 & H3). destruct i as [|i]; simpl in H2.
        * left. injection H2 as ->. rewrite H3, Nat.add_0_r. now left.
        * right. exists i, x. split; [lia|auto].
  Qed.

  Lemma positions_lt {X} (p : X -> bool) l k0 s : In s (positions p k0 l) -> (s < k0 + length l)%nat.
  Proof.
    intros H. apply positions_spec in H. destruct H as (i & x & -> & H & _).
    apply Nat.add_lt_mono_l, nth_error_Some. congruence.
  Qed.

  Lemma positions_NoDup {X} (p : X -> bool) l : forall k0, NoDup (positions p k0 l).
  Proof.
    induction l as [|a l IH]; intros k0; simpl; [constructor|].
    destruct (p a); simpl; [|apply IH]. constructor; [|apply IH].
    intros H. apply positions_spec in H. destruct H as (i & _ & E & _). lia.
  Qed.

  Lemma infeed_of_nth (ns : list tnode) i nd : nth_error ns i = Some nd -> infeed_of ns i = n_infeed nd.
  Proof. unfold infeed_of. now intros ->. Qed.

  Lemma infeed_of_true (ns : list tnode) i :
    infeed_of ns i = true -> exists nd, nth_error ns i = Some nd /\ n_infeed nd = true.
  Proof. unfold infeed_of. destruct (nth_error ns i) as [nd|]; [now exists nd|discriminate]. Qed.

  Lemma infeed_of_lt (ns : list tnode) i : infeed_of ns i = true -> (i < length ns)%nat.
  Proof. intros H. destruct (infeed_of_true ns i H) as (nd & E & _). apply nth_error_Some. congruence. Qed.

  Lemma infeed_nodes_spec (ns : list tnode) s : In s (infeed_nodes ns) <-> infeed_of ns s = true.
  Proof.
    unfold infeed_nodes. rewrite positions_spec. split.
    - intros (i & nd & -> & E & H). simpl. now rewrite (infeed_of_nth ns i nd E).
    - intros H. destruct (infeed_of_true ns s H) as (nd & E & Hnd). now exists s, nd.
  Qed.

  Lemma wf_tnc_lt (ns : list tnode) bs b : wf ns bs -> In b bs -> (tnc b < length ns)%nat.
  Proof.
    intros [_ H] Hin. rewrite Forall_forall in H. specialize (H b Hin).
    unfold tnc. destruct (b_sw b); tauto.
  Qed.

  Lemma rowsum_app (t1 t2 : list trip) r x : rowsum (t1 ++ t2) r x = rowsum t1 r x + rowsum t2 r x.
  Proof.
    induction t1 as [|[[r' c] v] t1 IH]; simpl; [ring|].
    destruct (Nat.eqb r' r); rewrite IH; ring.
  Qed.

  Lemma insum_none (g : nat -> tbranch -> A) i (bs : list tbranch) : forall k0,
    (forall b, In b bs -> tnc b <> i) -> insum g i k0 bs = 0.
  Proof.
    induction bs as [|b bs IH]; intros k0 H; simpl; [reflexivity|].
    rewrite IH by (intros; apply H; now right).
    destruct (Nat.eqb_spec (tnc b) i) as [E|_]; [|ring]. now apply H in E; [|left].
  Qed.

  (* branch equations occupy the rows from n + k0 on, the k-th of them row n + k0 + k *)
  Lemma rowsum_branch_trips_low n x (bs : list tbranch) : forall k0 r,
    (r < n + k0)%nat -> rowsum (branch_trips n k0 bs) r x = 0.
  Proof.
    induction bs as [|b bs IH]; intros k0 r Hr; simpl; [reflexivity|].
    destruct (Nat.eqb_spec (n + k0) r); [lia|]. apply IH. lia.
  Qed.

  Lemma rowsum_branch_trips n x (bs : list tbranch) : forall k0 k b,
    nth_error bs k = Some b ->
    rowsum (branch_trips n k0 bs) (n + k0 + k) x = b_jdt b * x (fnc b) + b_jdtout b * x (n + k0 + k)%nat.
  Proof.
    induction bs as [|b0 bs IH]; intros k0 [|k] b H; try discriminate; simpl in H |- *.
    - injection H as ->. rewrite Nat.add_0_r, Nat.eqb_refl, rowsum_branch_trips_low by lia. ring.
    - destruct (Nat.eqb_spec (n + k0) (n + k0 + S k)); [lia|].
      replace (n + k0 + S k)%nat with (n + S k0 + k)%nat by lia. now apply IH.
  Qed.

  (* mixing derivatives: in row i, for the branches whose corrected to node is i, unless i is an infeed node *)
  Lemma rowsum_to_trips (ns : list tnode) n x i (bs : list tbranch) : forall k0,
    rowsum (to_trips ns n k0 bs) i x =
    if infeed_of ns i then 0
    else insum (fun k b => b_jdtn b * x i + b_jdtoutn b * x (n + k)%nat) i k0 bs.
  Proof.
    induction bs as [|b bs IH]; intros k0; simpl; [now destruct (infeed_of ns i)|].
    rewrite rowsum_app, IH. destruct (Nat.eqb_spec (tnc b) i) as [->|Hne].
    - destruct (infeed_of ns i); simpl; [ring|]. rewrite Nat.eqb_refl. ring.
    - destruct (infeed_of ns (tnc b)); simpl.
      + destruct (infeed_of ns i); ring.
      + destruct (Nat.eqb_spec (tnc b) i); [contradiction|]. destruct (infeed_of ns i); ring.
  Qed.

  (* own derivative of node i in row k0 + i, unless it is an infeed node *)
  Lemma rowsum_node_trips_low x (ns : list tnode) : forall k0 r,
    (r < k0)%nat -> rowsum (node_trips k0 ns) r x = 0.
  Proof.
    induction ns as [|nd ns IH]; intros k0 r Hr; simpl; [reflexivity|].
    rewrite rowsum_app, IH by lia. destruct (n_infeed nd); simpl; [ring|].
    destruct (Nat.eqb_spec k0 r); [lia|ring].
  Qed.

  Lemma rowsum_node_trips_from x (ns : list tnode) : forall k0 i,
    rowsum (node_trips k0 ns) (k0 + i) x =
    match nth_error ns i with
    | Some nd => if n_infeed nd then 0 else n_jdtn nd * x (k0 + i)%nat
    | None => 0
    end.
  Proof.
    induction ns as [|nd ns IH]; intros k0 [|i]; simpl; try reflexivity; rewrite rowsum_app.
    - rewrite Nat.add_0_r, rowsum_node_trips_low by lia.
      destruct (n_infeed nd); simpl; [ring|]. rewrite Nat.eqb_refl. ring.
    - replace (k0 + S i)%nat with (S k0 + i)%nat by lia. rewrite IH.
      destruct (n_infeed nd); simpl; [ring|].
      destruct (Nat.eqb_spec k0 (S (k0 + i))); [lia|ring].
  Qed.

  Lemma rowsum_node_trips x (ns : list tnode) i :
    rowsum (node_trips 0 ns) i x =
    match nth_error ns i with
    | Some nd => if n_infeed nd then 0 else n_jdtn nd * x i
    | None => 0
    end.
  Proof. exact (rowsum_node_trips_from x ns 0 i). Qed.

  (* fixed temperature equations: the row of the j-th infeed node holds a one in the column of the j-th
     T-typed node; no other row has an entry *)
  Lemma rowsum_pairs_other (l1 l2 : list nat) x r : ~ In r l1 ->
    rowsum (map (fun rc : nat * nat => (fst rc, snd rc, 1)) (combine l1 l2)) r x = 0.
  Proof.
    revert l2. induction l1 as [|a l1 IH]; intros [|c l2] H; simpl; try reflexivity.
    destruct (Nat.eqb_spec a r) as [->|_]; [destruct H; now left|]. apply IH. intros C. apply H. now right.
  Qed.

  Lemma rowsum_pairs (l1 l2 : list nat) x : NoDup l1 -> forall j r s,
    nth_error l1 j = Some r -> nth_error l2 j = Some s ->
    rowsum (map (fun rc : nat * nat => (fst rc, snd rc, 1)) (combine l1 l2)) r x = x s.
  Proof.
    intros Hnd. revert l2. induction Hnd as [|a l1 Hnot _ IH]; intros [|c l2] [|j] r s H1 H2; try discriminate;
      simpl in H1, H2 |- *.
    - injection H1 as ->. injection H2 as ->. rewrite Nat.eqb_refl, rowsum_pairs_other by assumption. ring.
    - destruct (Nat.eqb_spec a r) as [->|_]; [|now apply (IH l2 j)].
      destruct Hnot. now apply nth_error_In with j.
  Qed.

  Lemma rowsum_fixed_trips_other (ns : list tnode) x r :
    infeed_of ns r = false -> rowsum (fixed_trips ns) r x = 0.
  Proof. intros H. apply rowsum_pairs_other. rewrite infeed_nodes_spec, H. discriminate. Qed.

  (* row n+k: the branch equation of the k-th branch, with the corrected from node *)
  Theorem row_branch (ns : list tnode) (bs : list tbranch) x k b :
    (forall b', In b' bs -> (tnc b' < length ns)%nat) -> nth_error bs k = Some b ->
    rowsum (trips ns bs) (length ns + k) x = b_jdt b * x (fnc b) + b_jdtout b * x (length ns + k)%nat.
  Proof.
    intros Hr Hk.
    assert (Hnone : nth_error ns (length ns + k) = None) by (apply nth_error_None; lia).
    assert (Hinf : infeed_of ns (length ns + k) = false) by (unfold infeed_of; now rewrite Hnone).
    pose proof (rowsum_branch_trips (length ns) x bs 0 k b Hk) as Hb. rewrite Nat.add_0_r in Hb.
    pose proof (rowsum_node_trips x ns (length ns + k)) as Hn. rewrite Hnone in Hn.
    unfold Model.trips. rewrite !rowsum_app, Hb, Hn, rowsum_to_trips, Hinf, rowsum_fixed_trips_other by assumption.
    rewrite insum_none; [ring|]. intros b' Hin. specialize (Hr b' Hin). lia.
  Qed.

  (* row i of a node that is not an infeed node: its own derivative plus, for every branch whose corrected
     to node is i, the two mixing derivatives *)
  Theorem row_node (ns : list tnode) (bs : list tbranch) x i nd :
    nth_error ns i = Some nd -> n_infeed nd = false ->
    rowsum (trips ns bs) i x =
    n_jdtn nd * x i + insum (fun k b => b_jdtn b * x i + b_jdtoutn b * x (length ns + k)%nat) i 0 bs.
  Proof.
    intros Hn Hi.
    assert (Hinf : infeed_of ns i = false) by now rewrite (infeed_of_nth ns i nd Hn).
    assert (Hlt : (i < length ns + 0)%nat) by (rewrite Nat.add_0_r; apply nth_error_Some; congruence).
    pose proof (rowsum_node_trips x ns i) as Hd. rewrite Hn, Hi in Hd.
    unfold Model.trips.
    rewrite !rowsum_app, Hd, rowsum_to_trips, Hinf, rowsum_branch_trips_low, rowsum_fixed_trips_other by assumption.
    ring.
  Qed.

  (* row of the j-th infeed node: 1 * x(j-th T-typed node) *)
  Theorem row_infeed (ns : list tnode) (bs : list tbranch) x j r s :
    nth_error (infeed_nodes ns) j = Some r -> nth_error (t_nodes ns) j = Some s ->
    rowsum (trips ns bs) r x = x s.
  Proof.
    intros H1 H2.
    assert (Hinf : infeed_of ns r = true) by (apply infeed_nodes_spec; now apply nth_error_In with j).
    assert (Hlt : (r < length ns + 0)%nat) by (rewrite Nat.add_0_r; now apply infeed_of_lt).
    destruct (infeed_of_true ns r Hinf) as (nd & En & Hnd).
    pose proof (rowsum_node_trips x ns r) as Hd. rewrite En, Hnd in Hd.
    unfold Model.trips, Model.fixed_trips.
    rewrite !rowsum_app, Hd, rowsum_to_trips, Hinf, rowsum_branch_trips_low by assumption.
    rewrite (rowsum_pairs (infeed_nodes ns) (t_nodes ns) x (positions_NoDup _ _ _) j r s H1 H2). ring.
  Qed.

  Theorem eps_node (ns : list tnode) (bs : list tbranch) i nd :
    nth_error ns i = Some nd ->
    nth i (eps ns bs) 0 = if n_infeed nd then 0 else - n_loadt nd + insum (lvnt_) i 0 bs.
  Proof.
    intros H. unfold Model.eps, Model.eps_nodes. rewrite app_nth1.
    - apply nth_error_nth. rewrite mapi_nth_error, H. reflexivity.
    - rewrite mapi_length. apply nth_error_Some. congruence.
  Qed.

  Theorem eps_branch (ns : list tnode) (bs : list tbranch) k b :
    nth_error bs k = Some b -> nth (length ns + k) (eps ns bs) 0 = b_lvb b.
  Proof.
    intros H. unfold Model.eps, Model.eps_nodes. rewrite app_nth2; rewrite mapi_length; [|lia].
    replace (length ns + k - length ns)%nat with k by lia.
    apply nth_error_nth. rewrite nth_error_map, H. reflexivity.
  Qed.

  (* T-typed nodes: under any solution of the linear system the increment of every T-typed node is zero
     (as many infeed nodes as T-typed nodes: check_infeed_number) *)
  Theorem fixed_nodes_increment_zero (ns : list tnode) (bs : list tbranch) x s :
    wf ns bs -> solves ns bs x -> In s (t_nodes ns) -> x s = 0.
  Proof.
    intros [Hlen _] Hs Hin. apply In_nth_error in Hin. destruct Hin as [j Hj].
    assert (Hjl : (j < length (infeed_nodes ns))%nat) by (rewrite Hlen; apply nth_error_Some; congruence).
    destruct (nth_error (infeed_nodes ns) j) as [r|] eqn:Er; [|apply nth_error_None in Er; lia].
    rewrite <- (row_infeed ns bs x j r s Er Hj).
    assert (Hinf : infeed_of ns r = true) by (apply infeed_nodes_spec; now apply nth_error_In with j).
    pose proof (infeed_of_lt ns r Hinf) as Hlt. destruct (infeed_of_true ns r Hinf) as (nd & En & Hnd).
    rewrite (Hs r), (eps_node ns bs r nd En), Hnd; [reflexivity|unfold dim; lia].
  Qed.

  (* ... hence the update of solve_temperature leaves their temperature unchanged, for every damping alpha *)
  Theorem fixed_nodes_keep_temperature (ns : list tnode) (bs : list tbranch) x s alpha (T : nat -> A) :
    wf ns bs -> solves ns bs x -> In s (t_nodes ns) -> step_T mul sub alpha T x s = T s.
  Proof.
    intros Hw Hs Hin. unfold step_T. rewrite (fixed_nodes_increment_zero ns bs x s Hw Hs Hin). ring.
  Qed.

  (* a branch with an identity row (JAC_DERIV_DT = 0, JAC_DERIV_DTOUT = 1, load 0: circulation pumps,
     QE_TR heat consumers) keeps its outlet temperature *)
  Theorem identity_branch_keeps_outlet (ns : list tnode) (bs : list tbranch) x k b alpha (Tout : nat -> A) :
    wf ns bs -> solves ns bs x -> nth_error bs k = Some b ->
    b_jdt b = 0 -> b_jdtout b = 1 -> b_lvb b = 0 ->
    step_Tout mul sub alpha (length ns) Tout x k = Tout k.
  Proof.
    intros Hw Hs Hk H1 H2 H3. unfold step_Tout.
    assert (Hlt : (k < length bs)%nat) by (apply nth_error_Some; congruence).
    pose proof (Hs (length ns + k)%nat) as E. unfold dim in E. specialize (E ltac:(lia)).
    rewrite (row_branch ns bs x k b (fun b' => wf_tnc_lt ns bs b' Hw) Hk), (eps_branch ns bs k b Hk), H1, H2, H3 in E.
    assert (Hx : x (length ns + k)%nat = 0) by (rewrite <- E; ring).
    rewrite Hx. ring.
  Qed.

  Lemma rowsum_zero (t : list trip) r : rowsum t r (fun _ => 0) = 0.
  Proof. induction t as [|[[r' c] v] t IH]; simpl; auto. destruct (Nat.eqb r' r); rewrite ?IH; ring. Qed.

  (* x = 0 solves the system iff the load vector vanishes (fixed point of the iteration) *)
  Theorem fixed_point_load_zero (ns : list tnode) (bs : list tbranch) :
    solves ns bs (fun _ => 0) <-> forall r, (r < dim ns bs)%nat -> nth r (eps ns bs) 0 = 0.
  Proof.
    unfold Model.solves. split; intros H r Hr; specialize (H r Hr); rewrite rowsum_zero in *; auto.
  Qed.

  (* at a fixed point every node row that is not an infeed row reads: sum of the incoming LOAD_VEC_NODES_TO_T
     = LOAD_T *)
  Theorem fixed_point_node_row (ns : list tnode) (bs : list tbranch) i nd :
    solves ns bs (fun _ => 0) -> nth_error ns i = Some nd -> n_infeed nd = false ->
    insum lvnt_ i 0 bs = n_loadt nd.
  Proof.
    intros Hs Hn Hi. rewrite fixed_point_load_zero in Hs.
    assert (Hlt : (i < length ns)%nat) by (apply nth_error_Some; congruence).
    specialize (Hs i ltac:(unfold dim; lia)). rewrite (eps_node ns bs i nd Hn), Hi in Hs.
    transitivity ((- n_loadt nd + insum lvnt_ i 0 bs) + n_loadt nd); [ring|]. rewrite Hs. ring.
  Qed.

  Theorem fixed_point_branch_row (ns : list tnode) (bs : list tbranch) k b :
    solves ns bs (fun _ => 0) -> nth_error bs k = Some b -> b_lvb b = 0.
  Proof.
    intros Hs Hk. rewrite fixed_point_load_zero in Hs.
    assert (Hlt : (k < length bs)%nat) by (apply nth_error_Some; congruence).
    specialize (Hs (length ns + k)%nat ltac:(unfold dim; lia)). now rewrite (eps_branch ns bs k b Hk) in Hs.
  Qed.

  Lemma insum_sub (f g : nat -> tbranch -> A) i (bs : list tbranch) : forall k0,
    insum (fun k b => f k b - g k b) i k0 bs = insum f i k0 bs - insum g i k0 bs.
  Proof.
    induction bs as [|b bs IH]; intros k0; simpl; [ring|]. rewrite IH.
    destruct (Nat.eqb (tnc b) i); ring.
  Qed.

  (* Newton step with frozen coefficients: for any solution x, node i (not infeed) satisfies
     sum_in (lvnt_b - jdtn_b x_i - jdtoutn_b x_(n+k)) = loadt_i + jdtn_i x_i *)
  Theorem newton_step_node_row (ns : list tnode) (bs : list tbranch) x i nd :
    solves ns bs x -> nth_error ns i = Some nd -> n_infeed nd = false ->
    insum (fun k b => b_lvnt b - (b_jdtn b * x i + b_jdtoutn b * x (length ns + k)%nat)) i 0 bs
    = n_loadt nd + n_jdtn nd * x i.
  Proof.
    intros Hs Hn Hi.
    assert (Hlt : (i < length ns)%nat) by (apply nth_error_Some; congruence).
    pose proof (Hs i ltac:(unfold dim; lia)) as E.
    rewrite (row_node ns bs x i nd Hn Hi), (eps_node ns bs i nd Hn), Hi in E.
    rewrite (insum_sub lvnt_).
    set (S1 := insum lvnt_ i 0 bs) in *.
    set (S2 := insum (fun k b => b_jdtn b * x i + b_jdtoutn b * x (length ns + k)%nat) i 0 bs) in *.
    transitivity ((- n_loadt nd + S1) - (n_jdtn nd * x i + S2) + (n_loadt nd + n_jdtn nd * x i)); [ring|].
    rewrite E. ring.
  Qed.

  (* every row uses the corrected nodes: declaring a branch the other way round and flipping its switch flag
     gives the identical system *)
  Definition redeclare (b : tbranch) : tbranch :=
    mkTBranch (b_to b) (b_from b) (negb (b_sw b)) (b_jdt b) (b_jdtout b) (b_jdtn b) (b_jdtoutn b) (b_lvb b) (b_lvnt b).

  Lemma fnc_redeclare b : fnc (redeclare b) = fnc b.
  Proof. unfold fnc, redeclare; simpl. destruct (b_sw b); reflexivity. Qed.
  Lemma tnc_redeclare b : tnc (redeclare b) = tnc b.
  Proof. unfold tnc, redeclare; simpl. destruct (b_sw b); reflexivity. Qed.

  (* the system reads a branch only through its corrected nodes and its six coefficient columns *)
  Lemma system_ext (ns : list tnode) (bs : list tbranch) (f : tbranch -> tbranch) :
    (forall b, fnc (f b) = fnc b /\ tnc (f b) = tnc b /\
               b_jdt (f b) = b_jdt b /\ b_jdtout (f b) = b_jdtout b /\ b_jdtn (f b) = b_jdtn b /\
               b_jdtoutn (f b) = b_jdtoutn b /\ b_lvb (f b) = b_lvb b /\ b_lvnt (f b) = b_lvnt b) ->
    trips ns (map f bs) = trips ns bs /\ eps ns (map f bs) = eps ns bs.
  Proof.
    intros H. split.
    - unfold Model.trips. f_equal; [|f_equal].
      + generalize 0%nat. induction bs as [|b bs IH]; intros k0; simpl; auto.
        destruct (H b) as (-> & _ & -> & -> & _). now rewrite IH.
      + generalize 0%nat. induction bs as [|b bs IH]; intros k0; simpl; auto.
        destruct (H b) as (_ & -> & _ & _ & -> & -> & _). now rewrite IH.
    - unfold Model.eps. f_equal.
      + unfold Model.eps_nodes. apply mapi_ext. intros i nd. destruct (n_infeed nd); auto. f_equal.
        generalize 0%nat. induction bs as [|b bs IH]; intros k0; simpl; auto.
        destruct (H b) as (_ & -> & _ & _ & _ & _ & _ & E). unfold lvnt_. now rewrite E, IH.
      + rewrite map_map. apply map_ext. intros b. apply (H b).
  Qed.

  Theorem system_invariant_under_redeclaration (ns : list tnode) (bs : list tbranch) (sel : tbranch -> bool) :
    let bs' := map (fun b => if sel b then redeclare b else b) bs in
    trips ns bs' = trips ns bs /\ eps ns bs' = eps ns bs.
  Proof.
    apply system_ext. intros b. destruct (sel b); auto 10 using fnc_redeclare, tnc_redeclare.
  Qed.
End Assembly.
