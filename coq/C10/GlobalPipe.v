(* C10 - global bounds for the thermal pipeline: the abstract maximum principle of C10/Global.v instantiated with
   the fixed-point facts proved in C10/Proofs.v over the generated kernels. *)
From Coq Require Import Reals Lra List Bool.
From PP Require Import C10.Spec C10.Proofs C10.Global.
Import ListNotations.
Open Scope R_scope.

Definition edge_of tw cp Tn (pb : pbranch) : edge :=
  mkEdge (p_fnc pb) (p_tnc pb) (stream_w tw cp Tn pb) (p_tout pb) (p_text pb).
Definition edges_of tw cp Tn (pbs : list pbranch) : list edge := map (edge_of tw cp Tn) pbs.

Lemma gmix_mixsum tw cp Tn i pbs : gmix Tn i (edges_of tw cp Tn pbs) = mixsum tw cp Tn i pbs.
Proof. induction pbs as [|pb l IH]; simpl; [reflexivity|]. rewrite IH. reflexivity. Qed.

(* no heat sources: every branch flows, is no circulation pump, extracts no heat, has no temperature lift, a
   non-negative loss coefficient / length / diameter, an ambient temperature in [lo, hi], end nodes in range *)
Definition passive (tw : bool) (n : nat) (lo hi : R) (pb : pbranch) : Prop :=
  p_flow tw pb = true /\ p_ident pb = false /\ p_qext pb = 0 /\ p_tl pb = 0 /\
  0 <= p_alpha pb /\ 0 <= p_len pb /\ 0 <= p_do pb /\ (p_from pb < n)%nat /\ (p_to pb < n)%nat /\
  lo <= p_text pb <= hi.

Lemma flows_pos m : flows m -> 0 < Rabs m.
Proof. unfold flows. lra. Qed.

Lemma in_edges_of tw cp Tn pbs (P : edge -> Prop) :
  (forall pb, In pb pbs -> P (edge_of tw cp Tn pb)) -> forall e, In e (edges_of tw cp Tn pbs) -> P e.
Proof. intros H e He. apply in_map_iff in He. destruct He as (pb & <- & Hp). now apply H. Qed.

Lemma edges_of_in_range tw cp Tn n pbs : (forall pb, In pb pbs -> (p_from pb < n)%nat /\ (p_to pb < n)%nat) ->
  forall e, In e (edges_of tw cp Tn pbs) -> (e_from e < n)%nat /\ (e_to e < n)%nat.
Proof.
  intros Hr. apply in_edges_of. intros pb Hp. destruct (Hr pb Hp).
  unfold edge_of, p_fnc, p_tnc; simpl. destruct (p_sw pb); split; assumption.
Qed.

Lemma passive_edges_range tw cp Tn n lo hi pbs : Forall (passive tw n lo hi) pbs ->
  forall e, In e (edges_of tw cp Tn pbs) -> (e_from e < n)%nat /\ (e_to e < n)%nat.
Proof.
  intros Hpas. rewrite Forall_forall in Hpas. apply edges_of_in_range. intros pb Hp.
  destruct (Hpas pb Hp) as (_&_&_&_&_&_&_&H1&H2&_). split; assumption.
Qed.

Lemma stream_w_pos tw cp Tn pb : (forall t, 0 < cp t) -> p_flow tw pb = true -> 0 < stream_w tw cp Tn pb.
Proof.
  intros Hcp Hf. unfold stream_w. rewrite Hf.
  pose proof (flows_pos _ (proj1 (p_flow_flows tw pb) Hf)).
  pose proof (cbar_pos cp (p_tout pb) (Tn (p_tnc pb)) Hcp).
  destruct tw; apply Rmult_lt_0_compat; try assumption; apply Rmult_lt_0_compat; try assumption; lra.
Qed.

(* at a fixed point the outlet of a passive branch lies between its inlet node and its ambient *)
Lemma passive_outlet_between tw cp amb Tn isT n pbs lo hi pb :
  (forall t, 0 < cp t) -> fixed_point tw cp amb Tn isT n pbs -> In pb pbs -> passive tw n lo hi pb ->
  Rmin (Tn (p_fnc pb)) (p_text pb) <= p_tout pb <= Rmax (Tn (p_fnc pb)) (p_text pb).
Proof.
  intros Hcp Hfp Hp (Hf&Hid&HQ&HTL&Ha&HL&Hd&_).
  apply In_nth_error in Hp. destruct Hp as [k Hk].
  destruct (branch_cooling_law_pipeline tw cp amb Tn isT n pbs k pb Hfp Hk Hid) as [Hlaw _].
  specialize (Hlaw Hf). rewrite HQ, HTL in Hlaw.
  apply (branch_local_bounds (p_alpha pb) (p_len pb) (p_do pb) (cbar cp (Tn (p_fnc pb)) (p_tout pb)) (Rabs (p_m pb)));
    auto; [apply cbar_pos, Hcp|apply flows_pos, (p_flow_flows tw), Hf].
Qed.

Lemma inflow_node_flow tw cp amb Tn pbs pb :
  In pb pbs -> p_flow tw pb = true -> node_flow tw cp amb Tn pbs (p_tnc pb) = true.
Proof.
  intros Hp Hf. rewrite node_flow_spec. apply existsb_exists. exists pb. split; [assumption|].
  now rewrite Hf, Nat.eqb_refl, orb_true_r.
Qed.

(* a node downstream of a feed that is no infeed node has a flowing branch ending in it *)
Lemma up_noninfeed_node_flow tw cp amb Tn pbs i :
  (forall pb, In pb pbs -> p_flow tw pb = true) ->
  up (node_infeed tw cp amb Tn pbs) (edges_of tw cp Tn pbs) i ->
  node_infeed tw cp amb Tn pbs i = false -> node_flow tw cp amb Tn pbs i = true.
Proof.
  intros Hflow Hu Hinf. inversion Hu as [j Hj|e He Hue]; subst; [congruence|].
  apply in_map_iff in He. destruct He as (pb & <- & Hp).
  exact (inflow_node_flow tw cp amb Tn pbs pb Hp (Hflow pb Hp)).
Qed.

Theorem global_bounds_pipeline : forall tw cp amb Tn isT n pbs lo hi,
  (forall t, 0 < cp t) ->
  fixed_point tw cp amb Tn isT n pbs ->
  Forall (passive tw n lo hi) pbs ->
  (forall i, (i < n)%nat -> node_infeed tw cp amb Tn pbs i = true -> lo <= Tn i <= hi) ->
  (forall i, (i < n)%nat -> up (node_infeed tw cp amb Tn pbs) (edges_of tw cp Tn pbs) i) ->
  (forall i, (i < n)%nat -> lo <= Tn i <= hi) /\
  (forall pb, In pb pbs -> lo <= p_tout pb <= hi).
Proof.
  intros tw cp amb Tn isT n pbs lo hi Hcp Hfp Hpas Hfeed Hup.
  pose proof (passive_edges_range tw cp Tn n lo hi pbs Hpas) as H_range.
  rewrite Forall_forall in Hpas.
  assert (H_text : forall e, In e (edges_of tw cp Tn pbs) -> lo <= e_text e <= hi).
  { apply in_edges_of. intros pb Hp. apply (Hpas pb Hp). }
  assert (H_branch : forall e, In e (edges_of tw cp Tn pbs) ->
            Rmin (Tn (e_from e)) (e_text e) <= e_tout e <= Rmax (Tn (e_from e)) (e_text e)).
  { apply in_edges_of. intros pb Hp.
    exact (passive_outlet_between tw cp amb Tn isT n pbs lo hi pb Hcp Hfp Hp (Hpas pb Hp)). }
  assert (H_nodes : forall i, (i < n)%nat -> lo <= Tn i <= hi).
  { apply (global_bounds_nodes n Tn (node_infeed tw cp amb Tn pbs) (edges_of tw cp Tn pbs) lo hi); auto.
    - apply in_edges_of. intros pb Hp. apply stream_w_pos; [exact Hcp|apply (Hpas pb Hp)].
    - intros i Hi Hnf. rewrite gmix_mixsum. apply (node_mixing_law_pipeline tw cp amb Tn isT n pbs i Hfp Hi Hnf).
      apply up_noninfeed_node_flow; [intros pb Hp; apply (Hpas pb Hp)|exact (Hup i Hi)|exact Hnf]. }
  split; [exact H_nodes|]. intros pb Hp.
  apply (global_bounds_outlets n Tn (edges_of tw cp Tn pbs) lo hi H_range H_nodes H_text H_branch (edge_of tw cp Tn pb)).
  now apply in_map.
Qed.

(* every node touched by flow that is not in the kernel's infeed set is the (flow-corrected) to node of a
   flowing branch - by the definition infeed = setdiff1d(from[flow], to[flow]) *)
Lemma noninfeed_has_inflow : forall tw cp amb Tn pbs i,
  node_flow tw cp amb Tn pbs i = true -> node_infeed tw cp amb Tn pbs i = false ->
  exists pb, In pb pbs /\ p_flow tw pb = true /\ p_tnc pb = i.
Proof.
  intros tw cp amb Tn pbs i Hfl Hinf. rewrite node_flow_spec in Hfl. rewrite node_infeed_spec in Hinf.
  apply existsb_exists in Hfl. destruct Hfl as (pb & Hp & H).
  apply andb_true_iff in H. destruct H as [Hf H]. apply orb_true_iff in H. destruct H as [H|H].
  - (* i is the from node of a flowing branch and yet no infeed node: some flowing branch ends in it *)
    apply andb_false_iff in Hinf. destruct Hinf as [Hinf|Hinf].
    + rewrite <- not_true_iff_false in Hinf. destruct Hinf. apply existsb_exists. exists pb. now rewrite Hf.
    + apply negb_false_iff, existsb_exists in Hinf. destruct Hinf as (pb' & Hp' & H').
      apply andb_true_iff in H'. destruct H' as [Hf' H']. exists pb'. now rewrite <- Nat.eqb_eq.
  - exists pb. now rewrite <- Nat.eqb_eq.
Qed.

(* global bounds with the graph hypothesis in checkable form: all nodes touched by flow, flow graph acyclic *)
Theorem global_bounds_acyclic_pipeline : forall tw cp amb Tn isT n pbs lo hi (rank : nat -> nat),
  (forall t, 0 < cp t) ->
  fixed_point tw cp amb Tn isT n pbs ->
  Forall (passive tw n lo hi) pbs ->
  (forall i, (i < n)%nat -> node_infeed tw cp amb Tn pbs i = true -> lo <= Tn i <= hi) ->
  (forall i, (i < n)%nat -> node_flow tw cp amb Tn pbs i = true) ->
  (forall pb, In pb pbs -> (rank (p_fnc pb) < rank (p_tnc pb))%nat) ->
  (forall i, (i < n)%nat -> lo <= Tn i <= hi) /\
  (forall pb, In pb pbs -> lo <= p_tout pb <= hi).
Proof.
  intros tw cp amb Tn isT n pbs lo hi rank Hcp Hfp Hpas Hfeed Hflow Hrank.
  apply (global_bounds_pipeline tw cp amb Tn isT n pbs lo hi Hcp Hfp Hpas Hfeed).
  apply (up_from_rank n (node_infeed tw cp amb Tn pbs) (edges_of tw cp Tn pbs) rank).
  - exact (passive_edges_range tw cp Tn n lo hi pbs Hpas).
  - apply in_edges_of. exact Hrank.
  - intros i Hi Hnf. destruct (noninfeed_has_inflow tw cp amb Tn pbs i (Hflow i Hi) Hnf) as [pb [Hp [_ Ht]]].
    exists (edge_of tw cp Tn pb). split; [now apply in_map|exact Ht].
Qed.
