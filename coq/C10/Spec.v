(* C10 - hand-written specification of the documented thermal laws (no code is read here), with the proof that the
   specification agrees with itself: [cooling_profile] solves the documented loss equation and [spec_T_out] is that
   profile at x = L.

   doc/source/components/pipe/pipe_component.rst, "heat transfer":
       Q_loss = alpha * l * Pi * d * (T - T_ext)                                   (documented loss law)
   i.e. along a pipe carrying the mass flow m > 0 with heat capacity c_p the fluid temperature obeys
       c_p * m * dT/dx = - alpha * Pi * d * (T(x) - T_ext).
   Its solution is the exponential approach to the ambient temperature ([cooling_profile]); at x = L it
   gives the outlet temperature [spec_T_out] (plus the user's temperature lift TL and minus the external
   heat Q, which enter the outlet temperature as TL and Q / (c_p m)).
   doc/source/components/junction/junction_component.rst: "the thermal power carried by the incoming
   fluids is balanced" - [spec_mixing]: sum over incoming streams of  m * cbar * (T_stream - T_mix) = 0
   with cbar the mean heat capacity between stream and mixture temperature. *)
From Coq Require Import Reals Lra List.
Import ListNotations.
Open Scope R_scope.

(* mean heat capacity between two temperatures (the mean get_branch_cp uses) *)
Definition cbar (cp : R -> R) (Ta Tb : R) : R := (cp Ta + cp Tb) / 2.

Lemma cbar_pos cp Ta Tb : (forall t, 0 < cp t) -> 0 < cbar cp Ta Tb.
Proof. intros H. unfold cbar. pose proof (H Ta). pose proof (H Tb). lra. Qed.

(* temperature along the pipe, x metres from the inlet; k = alpha Pi d / (c_p m) *)
Definition cooling_profile (Text Tin k x : R) : R := Text + (Tin - Text) * exp (- (k * x)).

(* documented outlet temperature of a flowing branch; d_o is the OUTER diameter of the pipe (the surface that
   exchanges heat with the surroundings; pit column DO), alpha the heat transfer coefficient per outer surface *)
Definition spec_T_out (alpha L d_o cp m Text Tin TL Q : R) : R :=
  Text + (Tin - Text) * exp (- (alpha * L * PI * d_o / (cp * m))) + TL - Q / (cp * m).

(* the profile starts at the inlet temperature ... *)
Lemma cooling_profile_inlet : forall Text Tin k, cooling_profile Text Tin k 0 = Tin.
Proof. intros. unfold cooling_profile. rewrite Rmult_0_r, Ropp_0, exp_0. lra. Qed.

(* ... and satisfies the documented loss law as a differential equation:
   c_p m T'(x) = - alpha Pi d (T(x) - T_ext)   with  k = alpha Pi d / (c_p m) *)
Lemma cooling_profile_derivative : forall Text Tin k x,
  derivable_pt_lim (cooling_profile Text Tin k) x (- k * (cooling_profile Text Tin k x - Text)).
Proof.
  intros Text Tin k x. unfold cooling_profile.
  replace (- k * (Text + (Tin - Text) * exp (- (k * x)) - Text))
    with (0 + ((Tin - Text) * (exp (- (k * x)) * (- (k * 1))))) by ring.
  apply (derivable_pt_lim_plus (fun _ => Text) (fun y => (Tin - Text) * exp (- (k * y)))).
  - apply derivable_pt_lim_const.
  - apply (derivable_pt_lim_scal (fun y => exp (- (k * y)))).
    apply (derivable_pt_lim_comp (fun y => - (k * y)) exp).
    + apply (derivable_pt_lim_opp (fun y => k * y)).
      apply (derivable_pt_lim_scal (fun y => y)). apply derivable_pt_lim_id.
    + apply derivable_pt_lim_exp.
Qed.

Theorem documented_loss_law : forall alpha d_o cp m Text Tin x,
  cp * m <> 0 ->
  let k := alpha * PI * d_o / (cp * m) in
  exists T', derivable_pt_lim (cooling_profile Text Tin k) x T' /\
             cp * m * T' = - (alpha * PI * d_o * (cooling_profile Text Tin k x - Text)).
Proof.
  intros alpha d_o cp m Text Tin x H k.
  exists (- k * (cooling_profile Text Tin k x - Text)). split.
  - apply cooling_profile_derivative.
  - unfold k. field. split; intro E; apply H; rewrite E; ring.
Qed.

(* the outlet temperature of the spec is the profile at x = L plus lift minus extracted heat *)
Lemma spec_T_out_profile : forall alpha L d_o cp m Text Tin TL Q,
  cp * m <> 0 ->
  spec_T_out alpha L d_o cp m Text Tin TL Q =
  cooling_profile Text Tin (alpha * PI * d_o / (cp * m)) L + TL - Q / (cp * m).
Proof.
  intros. unfold spec_T_out, cooling_profile.
  replace (alpha * PI * d_o / (cp * m) * L) with (alpha * L * PI * d_o / (cp * m)) by (unfold Rdiv; ring).
  reflexivity.
Qed.

(* energy-conserving mix of streams (m_b, T_b) into a node of temperature T *)
Fixpoint mix_residual (cp : R -> R) (T : R) (streams : list (R * R)) : R :=
  match streams with
  | [] => 0
  | (m, Tb) :: r => Rabs m * cbar cp Tb T * (Tb - T) + mix_residual cp T r
  end.
Definition spec_mixing (cp : R -> R) (T : R) (streams : list (R * R)) : Prop := mix_residual cp T streams = 0.
