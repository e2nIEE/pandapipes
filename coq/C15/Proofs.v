(* C15 - proofs about the codec-layer model.  Every level of a document is a list of (key, x) pairs whose
   second components are encoded, decoded or quantised with [on_snd] / [on_sndM]; the list lemmas below say
   what that does, and each level of the codec applies them to the level beneath. *)
From Coq Require Import String List Bool.
From PP Require Import C15.Model.
Import ListNotations.
Open Scope string_scope.
Open Scope list_scope.

Lemma mapM_on_snd {K A B C} (dec : B -> option C) (enc : A -> B) (q : A -> C) (l : list (K * A)) :
  (forall kv, In kv l -> dec (enc (snd kv)) = Some (q (snd kv))) ->
  mapM (on_sndM dec) (map (on_snd enc) l) = Some (map (on_snd q) l).
Proof.
  induction l as [|kv l IH]; simpl; intros H; auto.
  unfold on_sndM at 1. simpl. rewrite (H kv), IH by auto. reflexivity.
Qed.

Lemma map_on_snd_compose {K A B C} (f : B -> C) (g : A -> B) (h : A -> C) (l : list (K * A)) :
  (forall x, f (g x) = h x) -> map (on_snd f) (map (on_snd g) l) = map (on_snd h) l.
Proof. intro H. rewrite map_map. apply map_ext. intro kv. unfold on_snd. simpl. now rewrite H. Qed.

Lemma map_on_snd_id {K A} (f : A -> A) (l : list (K * A)) : (forall x, f x = x) -> map (on_snd f) l = l.
Proof.
  intro H. rewrite <- (map_id l) at 2. apply map_ext. intros [k x]. unfold on_snd. simpl. now rewrite H.
Qed.

Lemma map_fst_on_snd {K A B} (f : A -> B) (l : list (K * A)) : map fst (map (on_snd f) l) = map fst l.
Proof. rewrite map_map. reflexivity. Qed.

Lemma filter_on_snd {K A B} (P : K -> bool) (f : A -> B) (l : list (K * A)) :
  filter (fun kv => P (fst kv)) (map (on_snd f) l) = map (on_snd f) (filter (fun kv => P (fst kv)) l).
Proof. induction l as [|[k v] l IH]; simpl; auto. destruct (P k); simpl; now rewrite IH. Qed.

Lemma filter_all {A} (P : A -> bool) l : forallb P l = true -> filter P l = l.
Proof.
  induction l as [|x l IH]; simpl; auto. intros H. apply andb_true_iff in H. destruct H as [H1 H2].
  rewrite H1. now rewrite IH.
Qed.

Lemma filter_none {A} (P : A -> bool) l : forallb (fun x => negb (P x)) l = true -> filter P l = [].
Proof.
  induction l as [|x l IH]; simpl; auto. intros H. apply andb_true_iff in H. destruct H as [H1 H2].
  apply negb_true_iff in H1. rewrite H1. auto.
Qed.

(* a list put together from a part where P fails and a part where it holds is taken apart again by P *)
Lemma filter_split {A} (P : A -> bool) a g :
  forallb (fun x => negb (P x)) a = true -> forallb P g = true ->
  filter (fun x => negb (P x)) (a ++ g) = a /\ filter P (a ++ g) = g.
Proof.
  intros Wa Wg. rewrite !filter_app, (filter_all _ a Wa), (filter_none _ a Wa), (filter_all _ g Wg).
  rewrite (filter_none (fun x => negb (P x)) g), app_nil_r; [auto|].
  rewrite forallb_forall in *. intros x Hx. rewrite negb_involutive. auto.
Qed.

Lemma filter_idem {A} (P : A -> bool) l : filter P (filter P l) = filter P l.
Proof. apply filter_all, forallb_forall. intros x H. now apply filter_In in H. Qed.

Lemma class_of_name c : class_of (class_name c) = Some c.
Proof. destruct c; reflexivity. Qed.

(* a class without extra fields has no getter field, so decoding keeps every field of it as an attribute *)
Lemma plain_class_lemma : forall c k, getter_fields_of c = [] -> is_getter_field_of c k = false.
Proof. intros c k H. unfold is_getter_field_of. now rewrite H. Qed.

Lemma strip_map {L} (f : value L -> value L) d :
  strip_internal L (map (on_snd f) d) = map (on_snd f) (strip_internal L d).
Proof. apply (filter_on_snd public_key). Qed.

Lemma strip_idem {L} d : strip_internal L (strip_internal L d) = strip_internal L d.
Proof. apply filter_idem. Qed.

Section Proofs.
  Variables L E : Type.
  Variable lenc : L -> E.
  Variable ldec : E -> option L.
  Variable quant : L -> L.
  Variable known_component : string -> bool.
  Hypothesis leaf_law : forall v, ldec (lenc v) = Some (quant v).

  Notation enc_fields := (enc_fields L E lenc).
  Notation dec_fields := (dec_fields L E ldec).
  Notation qf := (qf L quant).

  Lemma dec_enc_fields f : dec_fields (enc_fields f) = Some (qf f).
  Proof. exact (mapM_on_snd ldec lenc quant f (fun kv _ => leaf_law (snd kv))). Qed.

  (* to_dict appends the extra fields to the attributes; from_dict separates them again by key *)
  Lemma dec_enc_prop p : wf_prop L p = true -> dec_prop L E ldec (enc_prop L E lenc p) = Some (q_prop L quant p).
  Proof.
    destruct p as [c a g]. unfold wf_prop, dec_prop, enc_prop, q_prop. simpl. intros W.
    apply andb_true_iff in W. destruct W as [Wa Wg].
    destruct (filter_split (fun kv : string * L => is_getter_field_of c (fst kv)) a g Wa Wg) as [Sa Sg].
    replace (enc_fields a ++ enc_fields g) with (enc_fields (a ++ g)) by apply map_app.
    rewrite class_of_name, dec_enc_fields. unfold Model.qf.
    rewrite (filter_on_snd (fun k => negb (is_getter_field_of c k))), (filter_on_snd (is_getter_field_of c)), Sa, Sg.
    reflexivity.
  Qed.

  Lemma dec_enc_std s : dec_std L E ldec (enc_std L E lenc s) = Some (q_std L quant s).
  Proof. destruct s; simpl; now rewrite dec_enc_fields. Qed.

  Lemma dec_enc_value v : wf_value L known_component v = true ->
    dec_value L E ldec known_component (enc_value L E lenc v) = Some (q_value L quant v).
  Proof.
    destruct v as [l|a ps|tabs|cs]; simpl; intros W.
    - now rewrite leaf_law.
    - rewrite dec_enc_fields, (mapM_on_snd _ _ (q_prop L quant)); [reflexivity|].
      intros kv Hin. apply dec_enc_prop. exact (proj1 (forallb_forall _ _) W kv Hin).
    - rewrite (mapM_on_snd _ _ (map (on_snd (q_std L quant)))); [reflexivity|].
      intros tab _. apply mapM_on_snd. intros kv _. apply dec_enc_std.
    - now rewrite W.
  Qed.

  (* re-saving *)
  Hypothesis lenc_quant : forall v, lenc (quant v) = lenc v.

  Lemma enc_fields_qf f : enc_fields (qf f) = enc_fields f.
  Proof. exact (map_on_snd_compose lenc quant lenc f lenc_quant). Qed.

  Lemma enc_q_value v : enc_value L E lenc (q_value L quant v) = enc_value L E lenc v.
  Proof.
    destruct v as [l|a ps|tabs|cs]; simpl; auto.
    - now rewrite lenc_quant.
    - rewrite enc_fields_qf. f_equal. apply map_on_snd_compose. intro p.
      unfold enc_prop, q_prop. simpl. now rewrite !enc_fields_qf.
    - f_equal. apply map_on_snd_compose. intro tab. apply map_on_snd_compose.
      intros [f|f]; simpl; now rewrite enc_fields_qf.
  Qed.

  (* a second round trip changes nothing more *)
  Hypothesis quant_idem : forall v, quant (quant v) = quant v.

  Lemma qf_idem f : qf (qf f) = qf f.
  Proof. exact (map_on_snd_compose quant quant quant f quant_idem). Qed.

  Lemma q_value_idem v : q_value L quant (q_value L quant v) = q_value L quant v.
  Proof.
    destruct v as [l|a ps|tabs|cs]; simpl; auto.
    - now rewrite quant_idem.
    - rewrite qf_idem. f_equal. apply map_on_snd_compose. intro p.
      unfold q_prop. simpl. now rewrite !qf_idem.
    - f_equal. apply map_on_snd_compose. intro tab. apply map_on_snd_compose.
      intros [f|f]; simpl; now rewrite qf_idem.
  Qed.

  (* exact leaf codec (pickle: quant = identity) *)
  Lemma q_value_id : (forall v, quant v = v) -> forall v, q_value L quant v = v.
  Proof.
    intros Q. assert (QF : forall f, qf f = f) by (intro f; exact (map_on_snd_id quant f Q)).
    intros [l|a ps|tabs|cs]; simpl; auto.
    - now rewrite Q.
    - rewrite (QF a). f_equal. apply map_on_snd_id. intros [c at_ g]. unfold q_prop. simpl. now rewrite !QF.
    - f_equal. apply map_on_snd_id. intro tab. apply map_on_snd_id.
      intros [f|f]; simpl; now rewrite (QF f).
  Qed.

  Variable sector_all : value L.

  Lemma add_sector_keeps_value_lemma : forall d k v, In (k, v) d -> In (k, v) (add_sector L sector_all d).
  Proof. intros d k v H. unfold add_sector. destruct (has_key L "sector" d); auto. apply in_or_app. now left. Qed.
End Proofs.
