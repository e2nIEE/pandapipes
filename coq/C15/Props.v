(* C15 - property theorems only.  The leaf codec (pandapower's encoding of tables, arrays, numbers,
   strings) is a parameter of every statement together with its assumed laws; everything pandapipes
   adds on top is the model of coq/C15/Model.v.  Facts of the source the model relies on are
   regenerated into Gen/CodecFacts.v and decided here by computation. *)
From Coq Require Import String List Bool.
From PP Require Import C15.Model C15.Proofs Gen.CodecFacts.
Import ListNotations.
Open Scope string_scope.
Open Scope list_scope.

(* 1. round trip: exactly the public keys, in order, every leaf quantised, nothing else *)
Theorem roundtrip : forall (L E : Type) (lenc : L -> E) (ldec : E -> option L) (quant : L -> L)
    (known_component : string -> bool),
  (forall v, ldec (lenc v) = Some (quant v)) ->
  forall d, wf_doc L known_component d = true ->
  decode L E ldec known_component (encode L E lenc d) = Some (map_leaves L quant (strip_internal L d)).
Proof.
  intros L E lenc ldec quant kc leaf_law d W. unfold decode, encode, map_leaves. simpl.
  apply mapM_on_snd. intros kv Hin. apply (dec_enc_value L E lenc ldec quant kc leaf_law).
  apply filter_In in Hin. exact (proj1 (forallb_forall _ _) W kv (proj1 Hin)).
Qed.
Print Assumptions roundtrip.

Theorem internal_keys_dropped : forall (L : Type) (quant : L -> L) d k v,
  In (k, v) (map_leaves L quant (strip_internal L d)) -> String.prefix "_" k = false.
Proof.
  intros L quant d k v H. unfold map_leaves in H. apply in_map_iff in H. destruct H as [[k' v'] [E' Hin]].
  unfold on_snd in E'. simpl in E'. inversion E'; subst. apply filter_In in Hin. destruct Hin as [_ P].
  unfold public_key in P. simpl in P. now apply negb_true_iff in P.
Qed.
Print Assumptions internal_keys_dropped.

Theorem public_keys_kept : forall (L : Type) (quant : L -> L) d k v,
  In (k, v) d -> String.prefix "_" k = false ->
  In (k, q_value L quant v) (map_leaves L quant (strip_internal L d)).
Proof.
  intros L quant d k v Hin P. unfold map_leaves. apply in_map_iff. exists (k, v). split; auto.
  apply filter_In. split; auto. unfold public_key. simpl. now rewrite P.
Qed.
Print Assumptions public_keys_kept.

Theorem key_order_kept : forall (L : Type) (quant : L -> L) d,
  map fst (map_leaves L quant (strip_internal L d)) = filter public_key (map fst d).
Proof.
  intros L quant d. unfold map_leaves, strip_internal. rewrite map_fst_on_snd.
  induction d as [|[k v] d IH]; simpl; auto. destruct (public_key k); simpl; now rewrite IH.
Qed.
Print Assumptions key_order_kept.

(* 1b. exact leaf codec (pickle keeps every value bit for bit: quant = identity): nothing changes but the dropped
   `_` keys.  Instance of [roundtrip]; pickle's own container (dict(net) through pandapower) is an oracle covered by
   the differential with bit-exact comparison *)
Theorem roundtrip_exact_leaf_codec : forall (L E : Type) (lenc : L -> E) (ldec : E -> option L) (quant : L -> L)
    (known_component : string -> bool),
  (forall v, ldec (lenc v) = Some (quant v)) -> (forall v, quant v = v) ->
  forall d, wf_doc L known_component d = true ->
  decode L E ldec known_component (encode L E lenc d) = Some (strip_internal L d).
Proof.
  intros L E lenc ldec quant kc H Q d W. rewrite (roundtrip L E lenc ldec quant kc H d W). f_equal.
  apply map_on_snd_id, (q_value_id L quant Q).
Qed.
Print Assumptions roundtrip_exact_leaf_codec.

(* 1c. multi-energy nets: member pandapipes nets go through this layer, member pandapower nets and the controller
   table (with its controller objects) through pandapower's; member names and order are kept, `_` keys dropped *)
Theorem multinet_roundtrip : forall (L E : Type) (lenc : L -> E) (ldec : E -> option L) (quant : L -> L)
    (known_component : string -> bool),
  (forall v, ldec (lenc v) = Some (quant v)) ->
  forall d, wf_mdoc L known_component d = true ->
  decode_multi L E ldec known_component (encode_multi L E lenc d) =
  Some (map (on_snd (q_mvalue L quant)) (mstrip L d)).
Proof.
  intros L E lenc ldec quant kc H d W. unfold decode_multi, encode_multi. simpl.
  apply mapM_on_snd. intros [k v] Hin. apply filter_In in Hin.
  pose proof (proj1 (forallb_forall _ _) W _ (proj1 Hin)) as Wv. simpl in Wv |- *.
  destruct v as [l|ns]; simpl.
  - now rewrite H.
  - rewrite (mapM_on_snd _ _ (q_member L quant)); [reflexivity|].
    intros [n m] Hm. pose proof (proj1 (forallb_forall _ _) Wv _ Hm) as Wm. simpl in Wm |- *.
    destruct m as [dd|l]; simpl; [rewrite (roundtrip L E lenc ldec quant kc H dd Wm) | rewrite H]; reflexivity.
Qed.
Print Assumptions multinet_roundtrip.

Theorem multinet_member_names_kept : forall (L : Type) (quant : L -> L) (ns : list (string * member L)),
  map fst (map (on_snd (q_member L quant)) ns) = map fst ns.
Proof. intros L quant ns. apply map_fst_on_snd. Qed.
Print Assumptions multinet_member_names_kept.

(* 2. saving what was loaded reproduces the same JSON document (what the tie checks byte for byte) *)
Theorem idempotent_save : forall (L E : Type) (lenc : L -> E) (quant : L -> L),
  (forall v, lenc (quant v) = lenc v) ->
  forall d, encode L E lenc (map_leaves L quant (strip_internal L d)) = encode L E lenc d.
Proof.
  intros L E lenc quant Hq d. unfold encode, map_leaves. f_equal. rewrite strip_map, strip_idem.
  apply map_on_snd_compose, (enc_q_value L E lenc quant Hq).
Qed.
Print Assumptions idempotent_save.

Theorem second_roundtrip_is_fixpoint : forall (L : Type) (quant : L -> L),
  (forall v, quant (quant v) = quant v) ->
  forall d, map_leaves L quant (strip_internal L (map_leaves L quant (strip_internal L d))) =
            map_leaves L quant (strip_internal L d).
Proof.
  intros L quant Hq d. unfold map_leaves. rewrite strip_map, strip_idem.
  apply map_on_snd_compose, (q_value_idem L quant Hq).
Qed.
Print Assumptions second_roundtrip_is_fixpoint.

(* 3. fluid: every property class comes back as the same class with the same fields; the
      interpolator's x / y / fill rule are split off and restored *)
Theorem fluid_roundtrip : forall (L E : Type) (lenc : L -> E) (ldec : E -> option L) (quant : L -> L)
    (known_component : string -> bool),
  (forall v, ldec (lenc v) = Some (quant v)) ->
  forall a ps, forallb (fun kv => wf_prop L (snd kv)) ps = true ->
  dec_value L E ldec known_component (enc_value L E lenc (VFluid L a ps)) =
  Some (VFluid L (qf L quant a) (map (on_snd (q_prop L quant)) ps)).
Proof.
  intros L E lenc ldec quant kc H a ps W. exact (dec_enc_value L E lenc ldec quant kc H (VFluid L a ps) W).
Qed.
Print Assumptions fluid_roundtrip.

(* every property class - with or without extra stored fields - comes back as the same class with the same
   attribute / extra-field split; classes without extra fields keep every field as an attribute *)
Theorem property_roundtrip_every_class : forall (L E : Type) (lenc : L -> E) (ldec : E -> option L) (quant : L -> L),
  (forall v, ldec (lenc v) = Some (quant v)) ->
  forall p, wf_prop L p = true -> dec_prop L E ldec (enc_prop L E lenc p) = Some (q_prop L quant p).
Proof. exact dec_enc_prop. Qed.
Print Assumptions property_roundtrip_every_class.

Theorem property_class_and_fields_kept : forall (L E : Type) (lenc : L -> E) (ldec : E -> option L) (quant : L -> L),
  (forall v, ldec (lenc v) = Some (quant v)) ->
  forall p p', wf_prop L p = true -> dec_prop L E ldec (enc_prop L E lenc p) = Some p' ->
  p_class L p' = p_class L p /\ map fst (p_attrs L p') = map fst (p_attrs L p)
  /\ map fst (p_getter L p') = map fst (p_getter L p).
Proof.
  intros L E lenc ldec quant H p p' W D. rewrite (property_roundtrip_every_class L E lenc ldec quant H p W) in D.
  injection D as <-. unfold q_prop, qf. simpl. rewrite !map_fst_on_snd. auto.
Qed.
Print Assumptions property_class_and_fields_kept.

Theorem convert_format_fixpoint : forall (L version : Type) (vge : version -> version -> bool) (current : version)
    (format_version : doc L -> version) (upgrade : doc L -> doc L) d,
  vge (format_version d) current = true ->
  convert_format L version vge current format_version upgrade d = d.
Proof. intros L version vge current format_version upgrade d H. unfold convert_format. now rewrite H. Qed.
Print Assumptions convert_format_fixpoint.

Theorem convert_format_idempotent : forall (L version : Type) (vge : version -> version -> bool) (current : version)
    (format_version : doc L -> version) (upgrade : doc L -> doc L),
  (forall d, vge (format_version (upgrade d)) current = true) ->
  forall d, convert_format L version vge current format_version upgrade
              (convert_format L version vge current format_version upgrade d) =
            convert_format L version vge current format_version upgrade d.
Proof.
  intros L version vge current format_version upgrade Hu d. unfold convert_format.
  destruct (vge (format_version d) current) eqn:V.
  - now rewrite V.
  - now rewrite Hu.
Qed.
Print Assumptions convert_format_idempotent.

(* the complete convert_format (sector default, default components, version test) is the identity on a
   current-format document of EVERY sector: the sector entry is only added when the key is missing, its value
   (a plain string after JSON decoding) is never inspected *)
Theorem convert_format_identity_every_sector : forall (L version : Type) (vge : version -> version -> bool)
    (current : version) (format_version : doc L -> version) (upgrade : doc L -> doc L)
    (sector_all : value L) (complete : doc L -> bool) (add_defaults : doc L -> doc L),
  (forall d, complete d = true -> add_defaults d = d) ->
  forall d, has_key L "sector" d = true -> complete d = true -> vge (format_version d) current = true ->
  convert_format_full L version vge current format_version upgrade sector_all add_defaults d = d.
Proof.
  intros L version vge current format_version upgrade sector_all complete add_defaults Hd d Hs Hc Hv.
  unfold convert_format_full, add_sector. rewrite Hs, (Hd d Hc). now apply convert_format_fixpoint.
Qed.
Print Assumptions convert_format_identity_every_sector.

Theorem sector_entry_never_overwritten : forall (L : Type) (sector_all : value L) d,
  has_key L "sector" d = true -> add_sector L sector_all d = d.
Proof. intros L sector_all d H. unfold add_sector. now rewrite H. Qed.
Print Assumptions sector_entry_never_overwritten.

(* ---- facts of the source the model relies on (regenerated on every run) ---- *)
Theorem generated_key_filter : forallb (String.eqb "_") key_filter_prefixes = true /\ length key_filter_prefixes = 2.
Proof. vm_compute. split; reflexivity. Qed.
Print Assumptions generated_key_filter.

(* the interpolator's stored fields are the model's getter fields, the renaming to constructor keywords is
   injective (from_dict inverts to_dict), and the interpolator object itself is excluded from the dict *)
Theorem generated_interpolator_fields :
  map fst getter_entries = getter_fields /\ NoDup (map snd getter_entries) /\ In "prop_getter" inter_excludes.
Proof.
  split; [reflexivity|split].
  - repeat constructor; simpl; intuition discriminate.
  - simpl. auto.
Qed.
Print Assumptions generated_interpolator_fields.

(* exactly InterExtra and Polynominal override the generic to_dict of JSONSerializableClass *)
Theorem generated_class_overrides :
  map (fun x => fst (fst x)) (filter (fun x => snd (fst x)) fluid_classes)
    = ["FluidPropertyInterExtra"; "FluidPropertyPolynominal"]
  /\ forallb (fun c => existsb (fun x => String.eqb (fst (fst x)) (class_name c)) fluid_classes)
             [CConst; CLinear; CInterExtra; CPoly; CSuth] = true
  /\ existsb (String.eqb "pandapipesNet") registry_names = true
  /\ existsb (String.eqb "MultiNet") registry_names = true.
Proof. vm_compute. repeat split; reflexivity. Qed.
Print Assumptions generated_class_overrides.

(* Polynominal: the stored extra field(s) are exactly those from_dict pops (checked by the translator) and the model's;
   the poly1d objects themselves are excluded from the dict *)
Theorem generated_polynominal_fields :
  poly_fields = getter_fields_of CPoly /\ In "prop_getter" poly_excludes /\ In "prop_int_getter" poly_excludes.
Proof. vm_compute. auto 10. Qed.
Print Assumptions generated_polynominal_fields.

(* bounded interpolation: the non-string fill value is written as null and the keyword omitted on load
   (recognised in the source), and that codec of the fill rule is a bijection *)
Theorem generated_bounded_fill_codec : inter_fill_none_codec = true /\ forall f, dec_fill (enc_fill f) = Some f.
Proof. split; [reflexivity | intros []; reflexivity]. Qed.
Print Assumptions generated_bounded_fill_codec.

(* a well-formed document never fails to load (no `roundtrip raises`) *)
Theorem roundtrip_total : forall (L E : Type) (lenc : L -> E) (ldec : E -> option L) (quant : L -> L)
    (known_component : string -> bool),
  (forall v, ldec (lenc v) = Some (quant v)) ->
  forall d, wf_doc L known_component d = true ->
  decode L E ldec known_component (encode L E lenc d) <> None.
Proof. intros L E lenc ldec quant kc H d W. rewrite (roundtrip L E lenc ldec quant kc H d W). discriminate. Qed.
Print Assumptions roundtrip_total.

(* _add_sector tests the presence of the KEY only, and convert_format calls it and add_default_components(overwrite=False)
   before the version test - the shape the model of convert_format_full assumes *)
Theorem generated_sector_guard : sector_guard_key_presence = true /\ convert_prelude_recognised = true.
Proof. split; reflexivity. Qed.
Print Assumptions generated_sector_guard.

(* ---- the hypotheses are satisfiable: a concrete leaf codec and a document with every value kind ---- *)
Definition ex_quant (s : string) : string := match s with String c _ => String c "" | EmptyString => "" end.
Definition ex_doc : doc string :=
  [("junction", VLeaf string "table");
   ("_pit", VLeaf string "internal");
   ("fluid", VFluid string [("name", "water")]
      [("density", {| p_class := CInterExtra; p_attrs := []; p_getter := [("x", "xs"); ("y", "ys"); ("_fill_value_orig", "extrapolate")] |});
       ("heat_capacity", {| p_class := CPoly; p_attrs := []; p_getter := [("coefficients", "c2 c1 c0")] |});
       ("viscosity", {| p_class := CConst; p_attrs := [("value", "1e-3"); ("warn_dependent_variables", "False")]; p_getter := [] |})]);
   ("std_types", VStd string [("pipe", [("80_GGG", StdDict string [("inner_diameter_mm", "80")])]);
                              ("pump", [("P1", StdPump string [("reg_par", "coefs")])])]);
   ("component_list", VComps string ["Junction"; "Pipe"])].
Example ex_wf : wf_doc string (fun _ => true) ex_doc = true.
Proof. reflexivity. Qed.
Example ex_roundtrip :
  decode string string (fun e => Some (ex_quant e)) (fun _ => true) (encode string string (fun v => v) ex_doc)
  = Some (map_leaves string ex_quant (strip_internal string ex_doc))
  /\ length (strip_internal string ex_doc) = 4.
Proof. split; reflexivity. Qed.

(* a multinet with a pandapipes member (with an internal key), a pandapower member and a controller table *)
Definition ex_mdoc : mdoc string :=
  [("name", MVLeaf string "mn"); ("_internal", MVLeaf string "x"); ("controller", MVLeaf string "table with P2G controller");
   ("nets", MVNets string [("gas", MPipes string ex_doc); ("power", MPower string "pandapower net")])].
Example ex_multinet_roundtrip :
  wf_mdoc string (fun _ => true) ex_mdoc = true /\
  decode_multi string string (fun e => Some (ex_quant e)) (fun _ => true) (encode_multi string string (fun v => v) ex_mdoc)
  = Some (map (on_snd (q_mvalue string ex_quant)) (mstrip string ex_mdoc)).
Proof. split; reflexivity. Qed.
Example ex_exact : decode string string (fun e => Some e) (fun _ => true) (encode string string (fun v => v) ex_doc)
                   = Some (strip_internal string ex_doc).
Proof. reflexivity. Qed.
Example ex_convert_every_sector :
  has_key string "sector" (ex_doc ++ [("sector", VLeaf string "heat")]) = true.
Proof. reflexivity. Qed.
