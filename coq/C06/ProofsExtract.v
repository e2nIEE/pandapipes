(* C06 - masks, positions and index assignment: what the placement of multi-section results, the relabel invariance of
   the structural pit and set_fixed_node_entries rest on. *)
From Coq Require Import ZArith List Lia Ring_theory Sorting.Sorted Sorting.Permutation.
From PP Require Import C06.Model C06.Proofs C06.ModelExtract.
Import ListNotations.
Open Scope nat_scope.

Lemma select_false_prefix {X} k : forall (xs ys : list X) m, length xs = k ->
  select (repeat false k ++ m) (xs ++ ys) = select m ys.
Proof.
  induction k as [|k IH]; intros xs ys m H.
  - destruct xs; [reflexivity|discriminate].
  - destruct xs as [|x xs]; [discriminate|]. simpl. apply IH. simpl in H. lia.
Qed.

(* xs[g] = xs[flatnonzero(g)] *)
Lemma map_nth_select_seq {X} (d : X) : forall (g : list bool) (xs pre : list X),
  map (fun p => nth p (pre ++ xs) d) (select g (seq (length pre) (length xs))) = select g xs.
Proof.
  induction g as [|b g IH]; intros [|x xs] pre; try reflexivity.
  simpl seq. simpl select.
  specialize (IH xs (pre ++ [x])). rewrite app_length, <- app_assoc, Nat.add_1_r in IH. simpl in IH.
  destruct b; simpl; [|exact IH]. rewrite IH. f_equal. apply nth_middle.
Qed.

Lemma select_positions {X} (d : X) g (xs : list X) :
  map (fun p => nth p xs d) (select g (seq 0 (length xs))) = select g xs.
Proof. exact (map_nth_select_seq d g xs []). Qed.

Lemma select_select {X} : forall (g c : list bool) (xs : list X),
  select (select g c) (select g xs) = select (andl g c) xs.
Proof.
  unfold andl. induction g as [|b g IH]; intros c xs; [reflexivity|].
  destruct c as [|y c]; [reflexivity|]. destruct xs as [|x xs].
  - (* [select m [] = []] needs the head of m *)
    simpl. destruct b; [reflexivity|now destruct (select g c)].
  - destruct b; simpl; [destruct y; simpl; now rewrite IH|apply IH].
Qed.

Lemma select_length_le {X} m : forall (xs : list X), length (select m xs) <= length xs.
Proof. induction m as [|b m IH]; intros [|x xs]; simpl; try lia. destruct b; simpl; specialize (IH xs); lia. Qed.

(* res[cr] = ws[cr], row by row *)
Lemma mask_assign_select {V} : forall (cr : list bool) (ws old : list V),
  length ws = length cr -> length old = length cr ->
  mask_assign cr (select cr ws) old =
  Some (map (fun x : bool * V * V => if fst (fst x) then snd (fst x) else snd x) (combine (combine cr ws) old)).
Proof.
  induction cr as [|c cr IH]; intros [|w ws] [|o old] Hw Ho; simpl in Hw, Ho; try discriminate; [reflexivity|].
  destruct c; simpl; rewrite IH by lia; reflexivity.
Qed.

Definition total_len (bl : list (nat * nat)) : nat := fold_right (fun pp s => block_len pp + s) 0 bl.

Lemma select_blocks_seq : forall bl a, select (blocks_mask bl) (seq a (total_len bl)) = pos_of_blocks a bl.
Proof.
  induction bl as [|[pre post] bl IH]; intros a; [reflexivity|].
  change (blocks_mask ((pre, post) :: bl)) with ((repeat false pre ++ true :: repeat false post) ++ blocks_mask bl).
  simpl total_len. unfold block_len. simpl fst. simpl snd.
  replace (pre + 1 + post + total_len bl) with (pre + S (post + total_len bl)) by lia.
  rewrite seq_app. change (seq (a + pre) (S (post + total_len bl))) with ((a + pre) :: seq (S (a + pre)) (post + total_len bl)).
  rewrite seq_app, <- app_assoc. simpl app.
  rewrite (select_false_prefix pre (seq a pre)) by apply seq_length. simpl select.
  rewrite (select_false_prefix post (seq (S (a + pre)) post)) by apply seq_length.
  rewrite IH. simpl pos_of_blocks. unfold block_len. simpl fst. simpl snd.
  f_equal. f_equal. lia.
Qed.

Lemma pos_of_blocks_length bl : forall a, length (pos_of_blocks a bl) = length bl.
Proof. induction bl; intros; simpl; auto. Qed.

(* [expect_rows] reads conn and vals at the positions of the distinguished sections *)
Lemma expect_rows_pos {V} (d : V) : forall bl a (conn : list bool) (vals old : list V),
  expect_rows d bl (skipn a conn) (skipn a vals) old =
  map (fun x : bool * V * V => if fst (fst x) then snd (fst x) else snd x)
      (combine (combine (map (fun p => nth p conn false) (pos_of_blocks a bl))
                        (map (fun p => nth p vals d) (pos_of_blocks a bl))) old).
Proof.
  induction bl as [|pp bl IH]; intros a conn vals [|o old]; try reflexivity.
  simpl. now rewrite !nth_skipn, !skipn_add, IH.
Qed.

Lemma expect_rows_nth {V} (d : V) : forall bl (conn : list bool) (vals old : list V) r pp o a,
  nth_error bl r = Some pp -> nth_error old r = Some o ->
  nth_error (expect_rows d bl (skipn a conn) (skipn a vals) old) r =
  Some (if nth (nth r (pos_of_blocks a bl) 0) conn false then nth (nth r (pos_of_blocks a bl) 0) vals d else o).
Proof.
  induction bl as [|p0 bl IH]; intros conn vals old r pp o a Hb Ho; [destruct r; discriminate|].
  destruct old as [|o0 old]; [destruct r; discriminate|].
  destruct r as [|r]; simpl in Hb, Ho.
  - inversion Hb; inversion Ho; subst. simpl. now rewrite !nth_skipn.
  - cbn [expect_rows pos_of_blocks nth_error nth]. rewrite !skipn_add. apply (IH conn vals old r pp o); auto.
Qed.

(* end-node / last-section placement through a one-True-per-row mask: every row gets the value of its own
   distinguished section iff that section is connected *)
Theorem place_ext_rows {V} (d : V) : forall bl (conn : list bool) (vals old : list V),
  length conn = total_len bl -> length vals = total_len bl -> length old = length bl ->
  place_ext conn (blocks_mask bl) vals old = Some (expect_rows d bl conn vals old).
Proof.
  intros bl conn vals old Hc Hv Ho. unfold place_ext. rewrite <- select_select.
  (* both masks select at the positions of the blocks *)
  rewrite <- (select_positions false _ conn), <- (select_positions d _ vals), Hc, Hv, select_blocks_seq.
  rewrite mask_assign_select by (rewrite !map_length, pos_of_blocks_length; lia).
  f_equal. symmetry. apply (expect_rows_pos d bl 0).
Qed.

Lemma total_len_map (f : nat -> nat * nat) secs :
  (forall s, In s secs -> block_len (f s) = s) -> total_len (map f secs) = fold_right plus 0 secs.
Proof.
  induction secs as [|s secs IH]; intros H; simpl; auto.
  rewrite IH by (intros; apply H; simpl; auto). rewrite H by (simpl; auto). reflexivity.
Qed.

Lemma total_len_first secs : (forall s, In s secs -> 0 < s) -> total_len (first_blocks secs) = fold_right plus 0 secs.
Proof. intros H. apply total_len_map. intros s Hs. specialize (H s Hs). unfold block_len. simpl. lia. Qed.

Lemma total_len_last secs : (forall s, In s secs -> 0 < s) -> total_len (last_blocks secs) = fold_right plus 0 secs.
Proof. intros H. apply total_len_map. intros s Hs. specialize (H s Hs). unfold block_len. simpl. lia. Qed.

Theorem end_node_placement {V} (d : V) secs (conn : list bool) (vals old : list V) :
  (forall s, In s secs -> 0 < s) ->
  length conn = fold_right plus 0 secs -> length vals = fold_right plus 0 secs -> length old = length secs ->
  place_ext conn (blocks_mask (first_blocks secs)) vals old = Some (expect_rows d (first_blocks secs) conn vals old)
  /\ place_ext conn (blocks_mask (last_blocks secs)) vals old = Some (expect_rows d (last_blocks secs) conn vals old).
Proof.
  intros Hpos Hc Hv Ho. split; apply place_ext_rows;
    rewrite ?total_len_first, ?total_len_last; auto; unfold first_blocks, last_blocks; now rewrite map_length.
Qed.

Lemma idx_pit_length : forall labels secs, length secs = length labels ->
  length (idx_pit_of labels secs) = fold_right plus 0 secs.
Proof.
  unfold idx_pit_of. induction labels as [|l labels IH]; intros [|s secs] H; simpl in *; try discriminate; auto.
  rewrite app_length, repeat_length, IH by lia. reflexivity.
Qed.

Lemma idx_pit_members labels secs k : In k (idx_pit_of labels secs) -> In k labels.
Proof.
  unfold idx_pit_of. rewrite in_flat_map. intros [[l s] [Hin Hrep]]. apply repeat_spec in Hrep. simpl in Hrep.
  subst. eapply in_combine_l; eauto.
Qed.

Lemma idx_pit_in : forall labels secs x, length secs = length labels -> (forall s, In s secs -> 0 < s) ->
  In x (idx_pit_of labels secs) <-> In x labels.
Proof.
  intros labels secs x Hl Hpos. split; [apply idx_pit_members|]. revert secs Hl Hpos.
  induction labels as [|l labels IH]; intros [|s secs] Hl Hpos Hin; simpl in Hl; try discriminate; [inversion Hin|].
  change (idx_pit_of (l :: labels) (s :: secs)) with (repeat l s ++ idx_pit_of labels secs).
  apply in_or_app. destruct Hin as [->|Hin].
  - left. assert (0 < s) by (apply Hpos; simpl; auto). destruct s; [lia|]. simpl; auto.
  - right. apply IH; auto. intros; apply Hpos; simpl; auto.
Qed.

(* ELEMENT_IDX of a duplicate-free table changes exactly at the row boundaries: [gmask] marks the last section of every
   row, [fmask] the first *)
Lemma gmask_length idx : length (gmask idx) = length idx.
Proof. induction idx as [|a idx IH]; [reflexivity|]. change (length (gmask (a :: idx))) with (S (length (gmask idx))). now rewrite IH. Qed.

Lemma gmask_repeat l s rest : 0 < s -> ~ In l rest ->
  gmask (repeat l s ++ rest) = repeat false (s - 1) ++ true :: gmask rest.
Proof.
  intros H Hn. induction s as [|s IH]; [lia|].
  destruct s.
  - destruct rest as [|k' rest]; [reflexivity|]. simpl.
    destruct (Z.eqb_spec k' l); [exfalso; apply Hn; simpl; auto|reflexivity].
  - change (gmask (repeat l (S (S s)) ++ rest)) with (negb (l =? l)%Z :: gmask (repeat l (S s) ++ rest)).
    rewrite Z.eqb_refl, IH by lia.
    replace (S (S s) - 1) with (S (S s - 1)) by lia. reflexivity.
Qed.

Lemma gmask_last_blocks : forall labels secs,
  length secs = length labels -> NoDup labels -> (forall s, In s secs -> 0 < s) ->
  gmask (idx_pit_of labels secs) = blocks_mask (last_blocks secs).
Proof.
  induction labels as [|l labels IH]; intros [|s secs] Hl Hnd Hpos; simpl in Hl; try discriminate; [reflexivity|].
  inversion Hnd as [|? ? Hn Hnd']; subst.
  pose proof (fun H => Hn (idx_pit_members labels secs l H)) as Hfresh.
  change (idx_pit_of (l :: labels) (s :: secs)) with (repeat l s ++ idx_pit_of labels secs).
  rewrite gmask_repeat by (auto; apply Hpos; simpl; auto).
  rewrite IH by (auto; intros; apply Hpos; simpl; auto).
  unfold blocks_mask, block_mask. simpl. now rewrite <- app_assoc.
Qed.

Lemma fmask_from_repeat l s rest : fmask_from l (repeat l s ++ rest) = repeat false s ++ fmask_from l rest.
Proof. induction s; simpl; auto. rewrite Z.eqb_refl. simpl. now f_equal. Qed.

Lemma fmask_from_fresh prev ks : ~ In prev ks -> fmask_from prev ks = fmask ks.
Proof.
  destruct ks as [|k ks]; [reflexivity|]. intros Hn. simpl.
  destruct (Z.eqb_spec k prev); [exfalso; apply Hn; simpl; auto|reflexivity].
Qed.

Lemma fmask_first_blocks : forall labels secs,
  length secs = length labels -> NoDup labels -> (forall s, In s secs -> 0 < s) ->
  fmask (idx_pit_of labels secs) = blocks_mask (first_blocks secs).
Proof.
  induction labels as [|l labels IH]; intros [|s secs] Hl Hnd Hpos; simpl in Hl; try discriminate; [reflexivity|].
  assert (Hs : 0 < s) by (apply Hpos; simpl; auto). destruct s as [|s']; [lia|].
  inversion Hnd as [|? ? Hn Hnd']; subst.
  pose proof (fun H => Hn (idx_pit_members labels secs l H)) as Hfresh.
  change (idx_pit_of (l :: labels) (S s' :: secs)) with (l :: repeat l s' ++ idx_pit_of labels secs).
  unfold fmask. rewrite fmask_from_repeat, fmask_from_fresh by auto.
  rewrite IH by (auto; intros; apply Hpos; simpl; auto).
  unfold blocks_mask, block_mask. simpl. now rewrite Nat.sub_0_r.
Qed.

Lemma place_last_as_mask {V} (d : V) idx (conn : list bool) (vals old : list V) :
  length conn = length idx -> length vals = length idx ->
  place_last d idx conn vals old = place_ext conn (gmask idx) vals old.
Proof.
  intros Hc Hv. unfold place_last, place_ext.
  rewrite <- Hc, (select_positions false (gmask idx) conn).
  rewrite select_select.
  rewrite Hc, <- Hv. now rewrite select_positions.
Qed.

(* the rows that [mask_assign_select] yields for [place_outlet], given the positions of the first and last sections *)
Lemma outlet_rows_eq {V} (d : V) (conn sw : list bool) (vals : list V) : forall firsts lasts old,
  length firsts = length lasts ->
  map (fun x : bool * V * V => if fst (fst x) then snd (fst x) else snd x)
      (combine (combine (map (fun p => nth p conn false) lasts)
                        (map (fun p => nth p vals d)
                             (map (fun x : bool * (nat * nat) => if fst x then fst (snd x) else snd (snd x))
                                  (combine (map (fun p => nth p sw false) lasts) (combine firsts lasts))))) old)
  = outlet_rows d firsts lasts conn sw vals old.
Proof.
  unfold outlet_rows.
  induction firsts as [|f firsts IH]; intros [|l lasts] old H; simpl in H; try discriminate; [reflexivity|].
  destruct old as [|o old]; [reflexivity|]. simpl. rewrite IH by lia. reflexivity.
Qed.

(* the keys of the grouped sum over ELEMENT_IDX are the labels in sorted order *)
Lemma spec_keys_sorted_labels labels secs order :
  length secs = length labels -> NoDup labels -> (forall s, In s secs -> 0 < s) ->
  Permutation order (seq 0 (length labels)) -> Sorted Z.le (permute 0%Z order labels) ->
  distinct_sorted (idx_pit_of labels secs) = permute 0%Z order labels.
Proof.
  intros Hl Hnd Hpos Hp Hs. pose proof (permute_perm 0%Z order labels Hp) as Hpl.
  symmetry. apply distinct_sorted_unique.
  - apply sorted_NoDup_ssorted; auto. now apply (Permutation_NoDup (Permutation_sym Hpl)).
  - intros x. rewrite idx_pit_in by auto. split; apply Permutation_in; auto. now apply Permutation_sym.
Qed.

Section Mean.
  Context {A : Type} (zero one : A) (add mul sub : A -> A -> A) (opp : A -> A)
          (Rth : ring_theory zero one add mul sub opp eq).
  Add Ring Aring2 : Rth.

  Definition lsum (l : list A) : A := fold_right add zero l.

  (* the values of row r: its block of the per-section column *)
  Fixpoint row_block (secs : list nat) (vals : list A) (r : nat) : list A :=
    match secs, r with
    | [], _ => []
    | s :: _, O => firstn s vals
    | s :: sr, S r' => row_block sr (skipn s vals) r'
    end.

  Lemma sum_pairs_repeat_app k l s : forall (vb : list A) rest vrest, length vb = s ->
    sum_pairs zero add k (combine (repeat l s ++ rest) (vb ++ vrest)) =
    add (if (l =? k)%Z then lsum vb else zero) (sum_pairs zero add k (combine rest vrest)).
  Proof.
    induction s as [|s IH]; intros vb rest vrest H.
    - destruct vb; [|discriminate]. simpl. destruct (l =? k)%Z; ring.
    - destruct vb as [|v vb]; [discriminate|]. simpl in H. simpl repeat. simpl app. simpl combine.
      rewrite sum_pairs_cons, IH by lia. simpl lsum. destruct (l =? k)%Z; ring.
  Qed.

  Lemma group_sum_is_row : forall labels secs (vals : list A) r,
    length secs = length labels -> NoDup labels -> length vals = fold_right plus 0 secs -> r < length labels ->
    sum_pairs zero add (nth r labels 0%Z) (combine (idx_pit_of labels secs) vals) = lsum (row_block secs vals r).
  Proof.
    induction labels as [|l labels IH]; intros [|s secs] vals r Hl Hnd Hv Hr; simpl in Hl, Hr; try discriminate; [lia|].
    simpl in Hv. inversion Hnd as [|? ? Hn Hnd']; subst.
    change (idx_pit_of (l :: labels) (s :: secs)) with (repeat l s ++ idx_pit_of labels secs).
    rewrite <- (firstn_skipn s vals) at 1.
    rewrite sum_pairs_repeat_app by (rewrite firstn_length; lia).
    destruct r; simpl nth; simpl row_block.
    - rewrite Z.eqb_refl, sum_pairs_none; [ring|].
      intros kv Hin. apply in_combine_fst, idx_pit_members in Hin. intro. subst. contradiction.
    - destruct (Z.eqb_spec l (nth r labels 0%Z)) as [E|NE].
      + exfalso. apply Hn. rewrite E. apply nth_In. lia.
      + rewrite IH by (auto; rewrite ?skipn_length; lia). ring.
  Qed.

  (* section means: group j of the grouped sum is the row with the j-th smallest label, which is where
     placement_table = argsort(table index) sends it *)
  Theorem spec_groups_are_rows labels secs (vals : list A) order :
    length secs = length labels -> NoDup labels -> (forall s, In s secs -> 0 < s) ->
    length vals = fold_right plus 0 secs ->
    Permutation order (seq 0 (length labels)) -> Sorted Z.le (permute 0%Z order labels) ->
    sbg_spec zero add (idx_pit_of labels secs) vals =
    (permute 0%Z order labels, map (fun i => lsum (row_block secs vals i)) order).
  Proof.
    intros Hl Hnd Hpos Hv Hp Hs. unfold sbg_spec. rewrite (spec_keys_sorted_labels labels secs order) by auto.
    f_equal. unfold permute. rewrite map_map. apply map_ext_in. intros i Hi.
    apply (Permutation_in _ Hp), in_seq in Hi. apply group_sum_is_row; auto. lia.
  Qed.
End Mean.

Definition rowsumZ (secs : list nat) (x : list Z) (r : nat) : Z := lsum 0%Z Z.add (row_block secs x r).

Definition upd {V} (old : list V) (p : nat) (v : V) : list V := firstn p old ++ v :: skipn (S p) old.

Lemma upd_length {V} (old : list V) p v : p < length old -> length (upd old p v) = length old.
Proof.
  intros H. unfold upd. rewrite app_length, firstn_length.
  change (length (v :: skipn (S p) old)) with (S (length (skipn (S p) old))). rewrite skipn_length. lia.
Qed.

Lemma upd_nth {V} (d : V) : forall (old : list V) p v r, p < length old ->
  nth r (upd old p v) d = if Nat.eqb r p then v else nth r old d.
Proof.
  unfold upd. induction old as [|o old IH]; intros p v r H; simpl in H; [lia|].
  destruct p, r; simpl; auto. apply IH. lia.
Qed.

Lemma index_assign_cons {V} p pt (v : V) vals old :
  index_assign (p :: pt) (v :: vals) old = index_assign pt vals (upd old p v).
Proof. reflexivity. Qed.

Lemma index_assign_length {V} : forall pt (W o : list V),
  (forall p, In p pt -> p < length o) -> length (index_assign pt W o) = length o.
Proof.
  induction pt as [|p pt IH]; intros W o H; [destruct W; reflexivity|].
  destruct W as [|w W]; [reflexivity|].
  rewrite index_assign_cons, IH; [apply upd_length; apply H; simpl; auto|].
  intros q Hq. rewrite upd_length by (apply H; simpl; auto). apply H. simpl; auto.
Qed.

Lemma index_assign_notin {V} (d : V) : forall (pt : list nat) (vals old : list V) r,
  (forall p, In p pt -> p < length old) -> ~ In r pt -> nth r (index_assign pt vals old) d = nth r old d.
Proof.
  induction pt as [|p pt IH]; intros [|v vals] old r Hlt Hn; try reflexivity.
  assert (Hp : p < length old) by (apply Hlt; simpl; auto).
  rewrite index_assign_cons, IH, upd_nth by (try rewrite upd_length; simpl in *; auto).
  destruct (Nat.eqb_spec r p); [exfalso; apply Hn; simpl; auto|reflexivity].
Qed.

(* with duplicate-free positions no write is overwritten *)
Lemma index_assign_at {V} (d : V) : forall (pt : list nat) (vals old : list V) j,
  NoDup pt -> length vals = length pt -> (forall p, In p pt -> p < length old) -> j < length pt ->
  nth (nth j pt 0) (index_assign pt vals old) d = nth j vals d.
Proof.
  induction pt as [|p pt IH]; intros [|v vals] old j Hnd Hl Hlt Hj; simpl in Hl, Hj; try discriminate; try lia.
  inversion Hnd as [|? ? Hn Hnd']; subst.
  assert (Hp : p < length old) by (apply Hlt; simpl; auto).
  assert (Hlt' : forall q, In q pt -> q < length (upd old p v)) by (intros; rewrite upd_length; simpl in *; auto).
  rewrite index_assign_cons. destruct j as [|j]; simpl nth.
  - rewrite index_assign_notin, upd_nth, Nat.eqb_refl; auto.
  - apply IH; auto. lia.
Qed.

(* res[ps[m]] = ws[m] : row ps[j] receives ws[j] iff m[j], all other rows keep their content *)
Lemma index_assign_select {V} (d : V) : forall (m : list bool) (ps : list nat) (ws old : list V) j,
  NoDup ps -> length ws = length ps -> (forall p, In p ps -> p < length old) -> j < length ps ->
  nth (nth j ps 0) (index_assign (select m ps) (select m ws) old) d =
  if nth j m false then nth j ws d else nth (nth j ps 0) old d.
Proof.
  induction m as [|b m IH]; intros [|p ps] [|w ws] old j Hnd Hl Hlt Hj; simpl in Hl, Hj; try discriminate; try lia.
  - now destruct j.
  - inversion Hnd as [|? ? Hn Hnd']; subst.
    assert (Hp : p < length old) by (apply Hlt; simpl; auto).
    assert (Hlt' : forall q, In q ps -> q < length (upd old p w)) by (intros; rewrite upd_length; simpl in *; auto).
    assert (Hsel : ~ In p (select m ps)) by (intro H; apply Hn; eapply select_in; eauto).
    destruct b; cbn [select].
    + rewrite index_assign_cons. destruct j as [|j]; simpl nth.
      * (* the row of the head is not written again *)
        rewrite index_assign_notin, upd_nth, Nat.eqb_refl; auto.
        intros q Hq. apply Hlt'. eapply select_in; eauto.
      * rewrite IH, upd_nth by (auto; lia).
        destruct (Nat.eqb_spec (nth j ps 0) p) as [E|]; [|reflexivity].
        exfalso. apply Hn. rewrite <- E. apply nth_In. lia.
    + destruct j as [|j]; simpl nth; [|apply IH; simpl in *; auto; lia].
      apply index_assign_notin; auto. intros q Hq. apply Hlt. right. eapply select_in; eauto.
Qed.

Lemma idx_pit_relabel rp : forall labels secs,
  idx_pit_of (map rp labels) secs = map rp (idx_pit_of labels secs).
Proof.
  unfold idx_pit_of. induction labels as [|l labels IH]; intros [|s secs]; simpl; auto.
  rewrite map_app, IH. f_equal. clear. induction s; simpl; auto. now f_equal.
Qed.

Lemma sum_pairs_ones l : forall juncts,
  sum_pairs 0%Z Z.add l (combine juncts (map (fun _ : Z => 1%Z) juncts)) = Z.of_nat (count_occ Z.eq_dec juncts l).
Proof.
  induction juncts as [|j juncts IH]; [reflexivity|].
  cbn [map combine count_occ]. rewrite sum_pairs_cons, IH.
  destruct (Z.eq_dec j l) as [E|NE]; destruct (Z.eqb_spec j l); try contradiction; lia.
Qed.

Lemma pos_of_label js l : NoDup js -> In l js ->
  exists r, r < length js /\ nth r js 0%Z = l /\ Z.to_nat (sget (mk_index_lookup js 0) l) = r.
Proof.
  intros Hnd Hin. apply In_nth with (d := 0%Z) in Hin. destruct Hin as [r [Hr E]].
  exists r. repeat split; auto. rewrite <- E. rewrite lookup_hit by auto. simpl. now rewrite Nat2Z.id.
Qed.

(* res[lookup[K]] = map g K for labels K of the table [js]: row r is written iff its label is in K *)
Lemma index_assign_by_label {V} (d : V) js K (g : Z -> V) (outK : Z -> bool) (o : list V) :
  NoDup js -> NoDup K -> (forall k, In k K -> In k js) -> (forall l, outK l = false <-> In l K) ->
  length o = length js ->
  index_assign (map (fun k => Z.to_nat (sget (mk_index_lookup js 0) k)) K) (map g K) o =
  map (fun lo : Z * V => if outK (fst lo) then snd lo else g (fst lo)) (combine js o).
Proof.
  intros Hnd HKnd Hsub Hout Lo.
  set (pos := fun k : Z => Z.to_nat (sget (mk_index_lookup js 0) k)).
  assert (Hpos : forall k, In k K -> pos k < length js /\ nth (pos k) js 0%Z = k).
  { intros k Hk. destruct (pos_of_label js k Hnd (Hsub _ Hk)) as [r [Hr [E Ep]]]. unfold pos. rewrite Ep. auto. }
  assert (Hind : NoDup (map pos K)).
  { apply NoDup_map_inj_in; auto. intros a b Ha Hb E.
    destruct (Hpos a Ha) as [_ Ea], (Hpos b Hb) as [_ Eb]. rewrite <- Ea, <- Eb, E. reflexivity. }
  assert (Hlt : forall p, In p (map pos K) -> p < length o).
  { intros p Hp. apply in_map_iff in Hp. destruct Hp as [k [<- Hk]]. rewrite Lo. now apply Hpos. }
  apply nth_ext with (d := d) (d' := d).
  - now rewrite index_assign_length, map_length, combine_length, Lo, Nat.min_id.
  - rewrite index_assign_length by auto. intros r Hr. rewrite Lo in Hr.
    rewrite (nth_map_default _ (combine js o) r d (0%Z, d)) by (rewrite combine_length; lia).
    rewrite combine_nth by lia. cbn [fst snd]. set (l := nth r js 0%Z).
    destruct (outK l) eqn:E.
    + apply index_assign_notin; auto. intro Hin. apply in_map_iff in Hin. destruct Hin as [k [Ek Hk]].
      destruct (Hpos k Hk) as [_ Ek']. rewrite Ek in Ek'. fold l in Ek'. subst k. apply Hout in Hk. congruence.
    + apply Hout in E. destruct (Hpos l E) as [Hlt' El].
      apply In_nth with (d := 0%Z) in E. destruct E as [j [Hj Ej]].
      assert (Epos : nth j (map pos K) 0 = r).
      { rewrite (nth_map_default pos K j 0 0%Z), Ej by auto. apply (proj1 (NoDup_nth js 0%Z) Hnd); auto. }
      rewrite <- Epos, index_assign_at by (rewrite ?map_length; auto).
      now rewrite (nth_map_default g K j d 0%Z), Ej.
Qed.
