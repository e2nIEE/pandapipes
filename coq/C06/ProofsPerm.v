(* C06 - the linear-system half of "row order does not matter": a sparse linear system, the same system with its
   unknowns and equations renumbered, and the row sums of the two. *)
From Coq Require Import Arith List.
Import ListNotations.
Open Scope nat_scope.

Section Transport.
  Context {A : Type} (zero : A) (add mul : A -> A -> A).

  Definition trip := (nat * nat * A)%type.           (* (row, column, value) of the sparse matrix *)

  Fixpoint rowsum (t : list trip) (r : nat) (x : nat -> A) : A :=
    match t with
    | [] => zero
    | (r', c, v) :: rest => if Nat.eqb r' r then add (mul v (x c)) (rowsum rest r x) else rowsum rest r x
    end.

  (* every equation of  J x = rhs  holds; nothing is assumed about how a solver finds x *)
  Definition solves (t : list trip) (rhs : nat -> A) (N : nat) (x : nat -> A) : Prop :=
    forall r, r < N -> rowsum t r x = rhs r.

  (* the same system with unknowns and equations renumbered by [s] *)
  Definition transport (s : nat -> nat) (t : list trip) : list trip :=
    map (fun e : trip => (s (fst (fst e)), s (snd (fst e)), snd e)) t.

  Lemma rowsum_transport (s u : nat -> nat) (N : nat) t r x :
    (forall i, i < N -> u (s i) = i) ->
    (forall e, In e t -> fst (fst e) < N /\ snd (fst e) < N) -> r < N ->
    rowsum (transport s t) (s r) (fun c => x (u c)) = rowsum t r x.
  Proof.
    intros Hus Hwf Hr. induction t as [|[[r' c] v] rest IH]; [reflexivity|].
    destruct (Hwf (r', c, v) (or_introl eq_refl)) as [Hr' Hc]. simpl in Hr', Hc.
    simpl. rewrite IH by (intros; apply Hwf; simpl; auto). rewrite (Hus c Hc).
    destruct (Nat.eqb_spec r' r) as [->|NE].
    - now rewrite Nat.eqb_refl.
    - destruct (Nat.eqb_spec (s r') (s r)) as [E|]; auto.
      exfalso. apply NE. rewrite <- (Hus r' Hr'), <- (Hus r Hr), E. reflexivity.
  Qed.
End Transport.
