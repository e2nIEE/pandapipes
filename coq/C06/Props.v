(* C06 - property theorems only (results do not depend on labels, row order or creation order), about the
   hand-written models of Model.v / ModelExtract.v, which tools/props/c06.py ties to /repo by exact correspondences
   evaluated inside Coq.  The lemmas they rest on are in Proofs.v, ProofsExtract.v and ProofsPerm.v. *)
From Coq Require Import ZArith List Bool Lia Ring_theory Sorting.Sorted Sorting.Permutation.
From PP Require Import C06.Model C06.Proofs C06.ModelExtract C06.ProofsExtract C06.ProofsPerm.
Import ListNotations.
Open Scope Z_scope.

(* index lookups: for duplicate-free non-negative labels the k-th row is found at start + k,
      every other label gives -1, the array has max + 1 entries (all labels are inside it) *)
Theorem lookup_correct : forall idx start,
  NoDup idx -> (forall x, In x idx -> 0 <= x) ->
  (forall k, (k < length idx)%nat -> sget (mk_index_lookup idx start) (nth k idx 0) = start + Z.of_nat k)
  /\ (forall l, ~ In l idx -> sget (mk_index_lookup idx start) l = -1)
  /\ (forall l, In l idx -> 0 <= l < alen (mk_index_lookup idx start))
  /\ alen (mk_index_lookup idx start) = match idx with [] => 0 | _ => max_list idx + 1 end.
Proof.
  intros idx start Hnd Hpos. split; [|split; [|split]].
  - intros k Hk. now apply lookup_hit.
  - intros l Hl. now apply lookup_miss.
  - intros l Hl. now apply lookup_len.
  - reflexivity.
Qed.
Print Assumptions lookup_correct.

(* the position found for a row does not depend on the label values: any relabelling that is
   injective on the table's labels leaves it unchanged *)
Theorem lookup_relabel_invariant : forall (rho : Z -> Z) idx start k,
  NoDup idx -> (forall a b, In a idx -> In b idx -> rho a = rho b -> a = b) -> (k < length idx)%nat ->
  sget (mk_index_lookup (map rho idx) start) (rho (nth k idx 0)) =
  sget (mk_index_lookup idx start) (nth k idx 0).
Proof. intros rho idx start k Hnd Hinj Hk. apply lookup_relabel_in; auto. now apply nth_In. Qed.
Print Assumptions lookup_relabel_invariant.

(* get_internal_lookup_structure: row k owns the contiguous range that starts after the internals
   of rows 0..k-1 *)
Theorem internal_lookup_structure_correct : forall counts start k, (k < length counts)%nat ->
  nth k (internal_structure counts start) (0, 0) =
  (start + sumz (firstn k counts), start + sumz (firstn k counts) + nth k counts 0 - 1).
Proof.
  intros counts start k H. unfold internal_structure.
  set (f := fun ce : Z * Z => let e := snd ce - 1 + start in (e - (fst ce - 1), e)).
  rewrite (nth_map_default f _ k (0, 0) (0, 0)) by (rewrite combine_length, cumsum_z_length; lia).
  rewrite combine_nth by (now rewrite cumsum_z_length).
  rewrite cumsum_z_nth, sumz_firstn_S by auto. unfold f; cbn [fst snd]. f_equal; lia.
Qed.
Print Assumptions internal_lookup_structure_correct.

(* grouped sums, any commutative ring, any keys *)
Section Ring.
  Context {A : Type} (zero one : A) (add mul sub : A -> A -> A) (opp : A -> A)
          (Rth : ring_theory zero one add mul sub opp eq).

  (* numpy path as of /repo fafb76b (group sums by np.add.reduceat over the first position of every group):
     whatever order argsort returns (it is not stable for equal keys) *)
  Theorem sum_by_group_np_spec : forall order ks vs,
    Permutation order (seq 0 (length ks)) -> Sorted Z.le (permute 0 order ks) -> length vs = length ks ->
    sbg_np zero add order ks vs = sbg_spec zero add ks vs.
  Proof. exact (sbg_np_spec zero one add mul sub opp Rth). Qed.

  (* numba path: bucket accumulation *)
  Theorem sum_by_group_numba_spec : forall ks vs,
    (forall k, In k ks -> 0 <= k) -> length vs = length ks ->
    sbg_bucket zero add ks vs = sbg_spec zero add ks vs.
  Proof. exact (sbg_bucket_spec zero one add mul sub opp Rth). Qed.

  (* the dispatch (use_numba, numba importable, max_ind heuristic incl. the 1e5 switch) is pure:
     all outcomes are the specification *)
  Theorem sum_by_group_spec : forall use_numba numba_installed order ks vs,
    Permutation order (seq 0 (length ks)) -> Sorted Z.le (permute 0 order ks) ->
    (forall k, In k ks -> 0 <= k) -> length vs = length ks ->
    sbg zero add use_numba numba_installed order ks vs = sbg_spec zero add ks vs.
  Proof. exact (sbg_all_paths_spec zero one add mul sub opp Rth). Qed.
End Ring.
Print Assumptions sum_by_group_np_spec.
Print Assumptions sum_by_group_numba_spec.
Print Assumptions sum_by_group_spec.

(* the specification itself: strictly increasing keys with the members of the input, per-key sums *)
Theorem sum_by_group_spec_meaning : forall ks (vs : list Z),
  StronglySorted Z.lt (fst (sbg_spec 0 Z.add ks vs))
  /\ (forall k, In k (fst (sbg_spec 0 Z.add ks vs)) <-> In k ks)
  /\ snd (sbg_spec 0 Z.add ks vs) = map (fun k => sum_pairs 0 Z.add k (combine ks vs)) (fst (sbg_spec 0 Z.add ks vs)).
Proof.
  intros ks vs. unfold sbg_spec. cbn [fst snd]. split; [|split].
  - apply distinct_sorted_sorted.
  - intros k. apply distinct_sorted_in.
  - reflexivity.
Qed.
Print Assumptions sum_by_group_spec_meaning.

(* relabel invariance of positions: pit order is table row order, so a relabelling that is injective on the
      junction labels (and any map on the table's own labels), applied consistently to the references, changes
      only ELEMENT_IDX; FROM_NODE / TO_NODE of all sections (np.insert chaining) are unchanged *)
Theorem mk_pit_relabel_invariant : forall (rj rp : Z -> Z) js w int_start,
  NoDup js -> (forall a b, In a js -> In b js -> rj a = rj b -> a = b) ->
  (forall l, In l (w_from w) -> In l js) -> (forall l, In l (w_to w) -> In l js) ->
  snd (pit_of (map rj js) (relabel_table rj rp w) int_start) = snd (pit_of js w int_start)
  /\ fst (pit_of (map rj js) (relabel_table rj rp w) int_start) = map rp (fst (pit_of js w int_start)).
Proof.
  intros rj rp js w int_start Hnd Hinj Hf Ht. unfold pit_of, relabel_table. simpl. split.
  - f_equal; rewrite map_map; apply map_ext_in; intros l Hl; apply lookup_relabel_in; auto.
  - apply idx_pit_relabel.
Qed.
Print Assumptions mk_pit_relabel_invariant.

(* placement of extracted multi-section results, for every duplicate-free labelling and all section counts *)
(* from / to values: row r gets the value at its own first / last section iff that section is connected *)
Theorem extract_end_values_placement : forall V (d : V) secs (conn : list bool) (vals old : list V),
  (forall s, In s secs -> (0 < s)%nat) ->
  length conn = fold_right plus 0%nat secs -> length vals = fold_right plus 0%nat secs -> length old = length secs ->
  place_ext conn (blocks_mask (first_blocks secs)) vals old = Some (expect_rows d (first_blocks secs) conn vals old)
  /\ place_ext conn (blocks_mask (last_blocks secs)) vals old = Some (expect_rows d (last_blocks secs) conn vals old).
Proof. intros V d. exact (end_node_placement d). Qed.
Print Assumptions extract_end_values_placement.

(* outlet results (t_outlet_k), code as of 82df6bf: last sections are the index changes in pit order, first
   sections the positions after an index change; row r gets the value of its own outlet section - the last section,
   or the first one when FROM_NODE_T_SWITCHED is set (flow against the declared direction) - iff its last section is
   connected.  [pos_of_blocks 0 (first_blocks secs)] / [(last_blocks secs)] are the first / last section of every row. *)
Theorem extract_last_section_placement : forall V (d : V) labels secs (conn sw : list bool) (vals old : list V),
  length secs = length labels -> NoDup labels -> (forall s, In s secs -> (0 < s)%nat) ->
  length old = length labels ->
  place_outlet d (idx_pit_of labels secs) conn sw vals old =
  Some (outlet_rows d (pos_of_blocks 0 (first_blocks secs)) (pos_of_blocks 0 (last_blocks secs)) conn sw vals old).
Proof.
  intros V d labels secs conn sw vals old Hl Hnd Hpos Ho.
  set (firsts := pos_of_blocks 0 (first_blocks secs)). set (lasts := pos_of_blocks 0 (last_blocks secs)).
  assert (EL : select (gmask (idx_pit_of labels secs)) (seq 0 (length (idx_pit_of labels secs))) = lasts).
  { rewrite idx_pit_length, gmask_last_blocks by auto. rewrite <- (total_len_last secs Hpos). apply select_blocks_seq. }
  assert (EF : select (fmask (idx_pit_of labels secs)) (seq 0 (length (idx_pit_of labels secs))) = firsts).
  { rewrite idx_pit_length, fmask_first_blocks by auto. rewrite <- (total_len_first secs Hpos). apply select_blocks_seq. }
  unfold place_outlet. cbv zeta. rewrite EL, EF.
  assert (Lf : length firsts = length secs) by (unfold firsts, first_blocks; now rewrite pos_of_blocks_length, map_length).
  assert (Ll : length lasts = length secs) by (unfold lasts, last_blocks; now rewrite pos_of_blocks_length, map_length).
  rewrite <- (select_map (fun p => nth p vals d)), mask_assign_select.
  - f_equal. apply outlet_rows_eq. lia.
  - rewrite !map_length, combine_length, map_length, combine_length. lia.
  - rewrite map_length. lia.
Qed.
Print Assumptions extract_last_section_placement.

(* without reversed flow this is the last section of the row *)
Theorem extract_last_section_placement_unswitched : forall V (d : V) labels secs (conn : list bool) (vals old : list V),
  length secs = length labels -> NoDup labels -> (forall s, In s secs -> (0 < s)%nat) ->
  length conn = fold_right plus 0%nat secs -> length vals = fold_right plus 0%nat secs ->
  length old = length labels ->
  place_last d (idx_pit_of labels secs) conn vals old = Some (expect_rows d (last_blocks secs) conn vals old).
Proof.
  intros V d labels secs conn vals old Hl Hnd Hpos Hc Hv Ho.
  rewrite place_last_as_mask by (rewrite idx_pit_length; auto).
  rewrite gmask_last_blocks by auto.
  apply place_ext_rows; rewrite ?total_len_last; auto.
  unfold last_blocks. rewrite map_length. lia.
Qed.
Print Assumptions extract_last_section_placement_unswitched.

(* section means: the j-th group of the grouped sum over ELEMENT_IDX is the row with the j-th smallest label -
   the row to which placement_table = argsort(table index) sends it - and its sum is the sum over that row's
   own sections (any commutative ring; any valid argsort) *)
Section RingMean.
  Context {A : Type} (zero one : A) (add mul sub : A -> A -> A) (opp : A -> A)
          (Rth : ring_theory zero one add mul sub opp eq).
  Theorem extract_mean_groups_are_rows : forall labels secs (vals : list A) order j,
    length secs = length labels -> NoDup labels -> (forall s, In s secs -> (0 < s)%nat) ->
    length vals = fold_right plus 0%nat secs ->
    Permutation order (seq 0 (length labels)) -> Sorted Z.le (permute 0 order labels) -> (j < length labels)%nat ->
    let res := sbg_spec zero add (idx_pit_of labels secs) vals in
    nth j (fst res) 0 = nth (nth j order 0%nat) labels 0
    /\ nth j (snd res) zero = lsum zero add (row_block secs vals (nth j order 0%nat)).
  Proof.
    intros labels secs vals order j Hl Hnd Hpos Hv Hp Hs Hj res.
    assert (Lo : length order = length labels) by (rewrite (Permutation_length Hp); apply seq_length).
    unfold res. rewrite (spec_groups_are_rows zero one add mul sub opp Rth labels secs vals order) by auto.
    unfold permute, fst, snd. split; now rewrite (nth_map_default _ order j _ 0%nat) by lia.
  Qed.
End RingMean.
Print Assumptions extract_mean_groups_are_rows.

(* final content of a section-mean / section-sum column (code as of /repo 08a8961; integers, Z.div): for every
   duplicate-free non-negative labelling, all section counts, numba on or off: row r is written iff one of its own
   sections is connected and then holds the sum over ITS OWN sections - undivided for the entry dp_frict_loss
   ([is_sum]), divided by ITS OWN section count for every other entry; otherwise it keeps its old content.  The
   number of connected sections of row r and its section count stand in the statement as the code computes them: as
   row sums (rowsumZ) of the 0/1 connected flags and of ones *)
Theorem extract_mean_and_sum_placement : forall (is_sum use_numba : bool) labels secs (conn : list bool) (vals old : list Z),
  length secs = length labels -> NoDup labels -> (forall l, In l labels -> 0 <= l) ->
  (forall s, In s secs -> (0 < s)%nat) ->
  length conn = fold_right plus 0%nat secs -> length vals = fold_right plus 0%nat secs -> length old = length labels ->
  forall r, (r < length labels)%nat ->
    nth r (place_mean is_sum use_numba labels (idx_pit_of labels secs) conn vals old) 0 =
    if 0 <? rowsumZ secs (map (fun b : bool => if b then 1 else 0) conn) r
    then (if is_sum then rowsumZ secs vals r
          else rowsumZ secs vals r / rowsumZ secs (map (fun _ => 1) (idx_pit_of labels secs)) r)
    else nth r old 0.
Proof.
  intros is_sum use_numba labels secs conn vals old Hl Hnd Hnn Hpos Hc Hv Ho r Hr.
  set (idx := idx_pit_of labels secs).
  assert (Li : length idx = fold_right plus 0%nat secs) by (apply idx_pit_length; auto).
  assert (Hkey : forall k, In k idx -> 0 <= k) by (intros k Hk; apply Hnn; eapply idx_pit_members; eauto).
  set (ones := map (fun _ : Z => 1) idx). set (ci := map (fun b : bool => if b then 1 else 0) conn).
  set (order := argsort labels).
  pose proof (argsort_perm labels) as Hp. pose proof (argsort_sorted labels) as Hs. fold order in Hp, Hs.
  assert (Lo : length order = length labels) by (rewrite (Permutation_length Hp); apply seq_length).
  (* every dispatch outcome is the specification, whose sums are the row sums in the order of argsort(labels) *)
  assert (Hcol : forall x, length x = fold_right plus 0%nat secs ->
            snd (sbg 0 Z.add use_numba true (argsort idx) idx x) = map (rowsumZ secs x) order).
  { intros x Hx. rewrite (sbg_model_order_spec 0 1 Z.add Z.mul Z.sub Z.opp InitialRing.Zth) by (auto; lia).
    unfold idx. now rewrite (spec_groups_are_rows 0 1 Z.add Z.mul Z.sub Z.opp InitialRing.Zth labels secs x order). }
  unfold place_mean, sbg_cols_Z. fold idx. fold ones. fold ci. fold order. cbn [snd map nth].
  rewrite !Hcol by (auto; unfold ones, ci; rewrite map_length; lia).
  set (f := fun p : Z * Z => if is_sum then fst p else fst p / snd p).
  rewrite <- select_combine, <- select_map.
  (* the row r is the group j with order[j] = r *)
  assert (Hin : In r order) by (apply (Permutation_in _ (Permutation_sym Hp)); apply in_seq; lia).
  apply In_nth with (d := 0%nat) in Hin. destruct Hin as [j [Hj <-]].
  rewrite (index_assign_select 0).
  - rewrite map_map, (nth_map_default _ order j false 0%nat) by lia.
    destruct (0 <? rowsumZ secs ci (nth j order 0%nat)); auto.
    rewrite (nth_map_default f _ j 0 (0, 0)) by (rewrite combine_length, !map_length; lia).
    rewrite combine_nth by (now rewrite !map_length).
    now rewrite !(nth_map_default _ order j 0 0%nat) by lia.
  - apply (Permutation_NoDup (Permutation_sym Hp)). apply seq_NoDup.
  - rewrite map_length, combine_length, !map_length. lia.
  - intros p Hp'. apply (Permutation_in _ Hp) in Hp'. apply in_seq in Hp'. lia.
  - lia.
Qed.
Print Assumptions extract_mean_and_sum_placement.

(* set_fixed_node_entries (ext grids, circulation pumps): code path (grouped sum over junction LABELS, index lookup,
   integer-index assignment) = specification, as lists: for every duplicate-free non-negative labelling in any row
   order, any fixing junctions (repeats allowed), numba on or off, the junction in table row r holds the mean of the
   values given for ITS OWN label and the number of elements fixing it; other rows are untouched *)
Theorem set_fixed_node_entries_placement : forall (use_numba : bool) js juncts vals old,
  NoDup js -> (forall l, In l js -> 0 <= l) -> (forall j, In j juncts -> In j js) ->
  length vals = length juncts -> length old = length js ->
  fixed_code use_numba js juncts vals old = fixed_spec js juncts vals old.
Proof.
  intros use_numba js juncts vals old Hnd Hnn Hsub Hv Ho.
  unfold fixed_code, fixed_spec, sbg_cols_Z. cbn [fst snd map nth].
  assert (Hk : forall k, In k juncts -> 0 <= k) by (intros; apply Hnn, Hsub; auto).
  rewrite !(sbg_model_order_spec 0 1 Z.add Z.mul Z.sub Z.opp InitialRing.Zth) by
    (auto; rewrite ?repeat_length, ?map_length; auto).
  unfold sbg_spec. cbn [fst snd].
  set (K := distinct_sorted juncts).
  set (cnt := fun l : Z => Z.of_nat (count_occ Z.eq_dec juncts l)).
  set (sm := fun l : Z => sum_pairs 0 Z.add l (combine juncts vals)).
  rewrite (map_ext _ cnt (fun l => sum_pairs_ones l juncts)).
  assert (HKnd : NoDup K) by (apply ssorted_NoDup, distinct_sorted_sorted).
  assert (HKsub : forall k, In k K -> In k js) by (intros k Hk'; apply Hsub, distinct_sorted_in, Hk').
  assert (Hout : forall l, (cnt l =? 0) = false <-> In l K).
  { intros l. unfold K, cnt. rewrite distinct_sorted_in, (count_occ_In Z.eq_dec), Z.eqb_neq. lia. }
  f_equal.
  - replace (map (fun p : Z * Z => fst p / snd p) (combine (map sm K) (map cnt K)))
      with (map (fun k => sm k / cnt k) K) by (clear; induction K; simpl; f_equal; auto).
    exact (index_assign_by_label 0 js K (fun k => sm k / cnt k) (fun l => cnt l =? 0) old Hnd HKnd HKsub Hout Ho).
  - rewrite (index_assign_by_label 0 js K cnt (fun l => cnt l =? 0)) by (rewrite ?map_length; auto).
    (* a row that is not written holds the initial count 0 *)
    clear - Ho. revert old Ho. induction js as [|l js IH]; intros [|o old] Ho; simpl in *; try discriminate; auto.
    f_equal; auto. destruct (Z.eqb_spec (cnt l) 0); auto.
Qed.
Print Assumptions set_fixed_node_entries_placement.

(* row permutation, exact-arithmetic half.  Positions: if the junction table is permuted by sigma, the junction that
   sigma puts into row k is found at pit position start + k - every reference to it moves with it *)
Theorem row_permutation_positions : forall js sigma start k,
  NoDup js -> Permutation sigma (seq 0 (length js)) -> (k < length js)%nat ->
  sget (mk_index_lookup (permute 0 sigma js) start) (nth (nth k sigma 0%nat) js 0) = start + Z.of_nat k.
Proof.
  intros js sigma start k Hnd Hp Hk.
  assert (Ls : length sigma = length js) by (rewrite (Permutation_length Hp); apply seq_length).
  pose proof (permute_perm 0 sigma js Hp) as Hpj.
  replace (nth (nth k sigma 0%nat) js 0) with (nth k (permute 0 sigma js) 0)
    by (apply (nth_map_default (fun i => nth i js 0) sigma k 0 0%nat); lia).
  apply lookup_hit.
  - now apply (Permutation_NoDup (Permutation_sym Hpj)).
  - unfold permute. rewrite map_length. lia.
Qed.
Print Assumptions row_permutation_positions.

(* PARTIAL (named hypothesis: the assembled system of the permuted net is the transported system - that is the
   statement of C01's assembly model under a permutation of node / branch rows and is not proved here): a linear system
   whose unknowns and equations are renumbered by a bijection s (inverse u) of [0,N) has exactly the renumbered
   solutions, in every commutative ring - so in exact arithmetic a row permutation permutes the Newton iterates *)
Section RingPerm.
  Context {A : Type} (zero one : A) (add mul sub : A -> A -> A) (opp : A -> A)
          (Rth : ring_theory zero one add mul sub opp eq).
  Theorem row_permutation_equivariance_partial : forall (s u : nat -> nat) (N : nat) t rhs x,
    (forall i, (i < N)%nat -> u (s i) = i) -> (forall i, (i < N)%nat -> s (u i) = i) ->
    (forall i, (i < N)%nat -> (s i < N)%nat) -> (forall i, (i < N)%nat -> (u i < N)%nat) ->
    (forall e, In e t -> (fst (fst e) < N)%nat /\ (snd (fst e) < N)%nat) ->
    (solves zero add mul (transport s t) (fun r => rhs (u r)) N (fun c => x (u c)) <-> solves zero add mul t rhs N x).
  Proof.   (* no ring law is needed: holds for any zero / add / mul *)
    intros s u N t rhs x Hus Hsu Hs Hu Hwf. unfold solves. split; intros H r Hr.
    - specialize (H (s r) (Hs r Hr)). rewrite (rowsum_transport zero add mul s u N) in H by auto. now rewrite Hus in H.
    - rewrite <- (Hsu r Hr) at 1. rewrite (rowsum_transport zero add mul s u N) by auto. apply H. auto.
  Qed.
End RingPerm.
Print Assumptions row_permutation_equivariance_partial.

(* non-vacuity: unsorted, sparse, large labels; both dispatch outcomes on concrete keys *)
Example lookup_example :
  let idx := [100007; 3; 52; 0] in
  NoDup idx /\ sget (mk_index_lookup idx 10) 52 = 12 /\ sget (mk_index_lookup idx 10) 4 = -1
  /\ alen (mk_index_lookup idx 10) = 100008.
Proof. simpl. repeat split; try reflexivity. repeat constructor; simpl; intuition lia. Qed.

Example sbg_example :
  sbg 0 Z.add true true (argsort [7; 3; 7; 0; 3]) [7; 3; 7; 0; 3] [1; 10; 100; 1000; 10000]
    = ([0; 3; 7], [1000; 10010; 101])
  /\ bucket_cond [7; 3; 7; 0; 3] = true
  /\ sbg 0 Z.add true true (argsort [100007; 3; 100007]) [100007; 3; 100007] [1; 10; 100]
    = ([3; 100007], [10; 101])
  /\ bucket_cond [100007; 3; 100007] = false.
Proof. vm_compute. repeat split. Qed.

(* the labelling on which t_outlet_k was misplaced before /repo aef289a: labels [7;3;5], sections [1;3;2] *)
Example t_outlet_example :
  place_outlet 0 (idx_pit_of [7; 3; 5] [1; 3; 2]%nat) [true; true; true; true; true; true]
               [false; true; true; true; false; false] [10; 20; 21; 22; 30; 31] [-1; -1; -1] = Some [10; 20; 31]
  /\ pos_of_blocks 0 (first_blocks [1; 3; 2]%nat) = [0; 1; 4]%nat /\ pos_of_blocks 0 (last_blocks [1; 3; 2]%nat) = [0; 3; 5]%nat
  /\ place_mean false false [7; 3; 5] (idx_pit_of [7; 3; 5] [1; 3; 2]%nat) [true; true; true; true; true; true]
                [12; 24; 36; 48; 10; 20] [-1; -1; -1] = [12; 36; 15]
  /\ place_mean true false [7; 3; 5] (idx_pit_of [7; 3; 5] [1; 3; 2]%nat) [true; true; true; true; false; false]
                [12; 24; 36; 48; 10; 20] [-1; -1; -1] = [12; 108; -1]
  /\ snd (pit_of [40; 10; 30] {| w_labels := [7; 3]; w_from := [10; 30]; w_to := [30; 40]; w_secs := [3; 1]%nat |} 3)
     = [(1, 3); (3, 4); (4, 2); (2, 0)].
Proof. vm_compute. repeat split. Qed.

(* set-points on a reversed labelling; a 3-cycle of the junction rows; a transported 2x2 system *)
Example fixed_and_permutation_example :
  fixed_code true [4; 3; 2; 1; 0] [4; 0; 4] [60; 48; 36] [-7; -7; -7; -7; -7] = ([48; -7; -7; -7; 48], [2; 0; 0; 0; 1])
  /\ fixed_spec [4; 3; 2; 1; 0] [4; 0; 4] [60; 48; 36] [-7; -7; -7; -7; -7] = ([48; -7; -7; -7; 48], [2; 0; 0; 0; 1])
  /\ sget (mk_index_lookup (permute 0 [2; 0; 1]%nat [70; 30; 50]) 0) 50 = 0
  /\ rowsum 0 Z.add Z.mul (transport (fun i => (1 - i)%nat) [(0%nat, 0%nat, 2); (0%nat, 1%nat, 3); (1%nat, 1%nat, 5)]) 1%nat
            (fun c => nth ((1 - c)%nat) [7; 11] 0) = 2 * 7 + 3 * 11.
Proof. vm_compute. repeat split. Qed.
