(* C06 - hand-written executable models (H-tie; definitions only: the one proof is the totality that Sort asks of KeyPos.leb) of
     pandapipes.pf.pipeflow_setup.create_lookups
     Junction.create_node_lookups, BranchW(O)InternalsComponent.create_branch_lookups / create_node_lookups
     component_toolbox.get_internal_lookup_structure
     pf.internals_toolbox._sum_by_group_sorted / _np / _numba / _sum_values_by_index / _sum_by_group
     pf.result_extraction.extract_branch_results_with_internals (placement logic)
     the structural columns (ELEMENT_IDX, FROM_NODE, TO_NODE) of the pit of junction / pipe-like tables.
   Labels (table indices) are Z, positions inside lists are nat, positions stored in arrays are Z.
   Tie: tools/props/c06.py runs the real functions on generated inputs and compares inside Coq. *)
From Coq Require Import ZArith List Bool Lia Ring_theory Sorting.Mergesort Orders.
Import ListNotations.
Open Scope Z_scope.

(* ------------------------------------------------------------------ small list helpers *)
Fixpoint select {X} (m : list bool) (xs : list X) : list X :=      (* xs[m] for a boolean mask *)
  match m, xs with
  | b :: mr, x :: xr => if b then x :: select mr xr else select mr xr
  | _, _ => []
  end.

Definition zrange (n : Z) : list Z := map Z.of_nat (seq 0 (Z.to_nat n)).     (* np.arange(n) *)

Definition max_list (l : list Z) : Z := fold_right Z.max 0 l.                (* labels are >= 0 *)

Definition count_true (m : list bool) : nat := length (filter (fun b => b) m).

(* ------------------------------------------------------------------ int arrays as write logs *)
(* np.ones(len) * -1 followed by fancy assignments a[keys] = values: a later write wins. *)
Record sarr := { alen : Z; awrites : list (Z * Z) }.

Definition sget (a : sarr) (i : Z) : Z :=
  fold_left (fun cur w => if fst w =? i then snd w else cur) (awrites a) (-1).

Definition swrite (a : sarr) (ws : list (Z * Z)) : sarr :=
  {| alen := alen a; awrites := awrites a ++ ws |}.

(* idx_lookups[tbl] = -ones(max+1); idx_lookups[tbl][table_indices] = arange(len) + current_start *)
Definition mk_index_lookup (idx : list Z) (start : Z) : sarr :=
  {| alen := match idx with [] => 0 | _ => max_list idx + 1 end;
     awrites := combine idx (map (fun k => start + k) (zrange (Z.of_nat (length idx)))) |}.

(* comparison with a real array shipped sparsely: its length and the (position, value) pairs of
   all entries <> -1 *)
Definition sarr_matches (a : sarr) (len : Z) (nz : list (Z * Z)) : bool :=
  (alen a =? len)
  && forallb (fun pv => (sget a (fst pv) =? snd pv) && (0 <=? fst pv) && (fst pv <? len)) nz
  && forallb (fun w => (sget a (fst w) =? -1) || existsb (fun pv => fst pv =? fst w) nz) (awrites a).

(* get_internal_lookup_structure: per row (first, last) position of its internals *)
Fixpoint cumsum_z (a : Z) (l : list Z) : list Z :=
  match l with [] => [] | x :: r => (a + x) :: cumsum_z (a + x) r end.

Definition internal_structure (counts : list Z) (start : Z) : list (Z * Z) :=
  map (fun ce => let e := snd ce - 1 + start in (e - (fst ce - 1), e))
      (combine counts (cumsum_z 0 counts)).

(* ------------------------------------------------------------------ create_lookups *)
(* One component as create_lookups sees it.  [c_branch]: None = not a branch component;
   Some None = branch without internals; Some (Some secs) = branch with internals (sections per row).
   [c_node]: None = no node table; Some (name, None) = a node table with an index lookup (junction);
   Some (name, Some counts) = internal nodes of a branch-with-internals component. *)
Record comp := {
  c_name : nat;                      (* table id *)
  c_labels : list Z;                 (* table index in row order *)
  c_branch : option (option (list Z));
  c_node : option (nat * option (list Z)) }.

Record lookups := {
  l_branch_ft : list (nat * (Z * Z));
  l_node_ft : list (nat * (Z * Z));
  l_branch_idx : list (nat * sarr);
  l_node_idx : list (nat * sarr);
  l_int_branches : list (nat * list (Z * Z));
  l_int_nodes : list (nat * list (Z * Z));
  l_branch_len : Z;
  l_node_len : Z }.

Definition sumz (l : list Z) : Z := fold_right Z.add 0 l.

Definition lookups_step (L : lookups) (c : comp) : lookups :=
  let n := Z.of_nat (length (c_labels c)) in
  (* create_branch_lookups *)
  let L1 :=
    match c_branch c with
    | None => L
    | Some None =>
        {| l_branch_ft := l_branch_ft L ++ [(c_name c, (l_branch_len L, l_branch_len L + n))];
           l_node_ft := l_node_ft L; l_branch_idx := l_branch_idx L; l_node_idx := l_node_idx L;
           l_int_branches := l_int_branches L; l_int_nodes := l_int_nodes L;
           l_branch_len := l_branch_len L + n; l_node_len := l_node_len L |}
    | Some (Some secs) =>
        {| l_branch_ft := l_branch_ft L ++ [(c_name c, (l_branch_len L, l_branch_len L + sumz secs))];
           l_node_ft := l_node_ft L;
           l_branch_idx := l_branch_idx L ++ [(c_name c, mk_index_lookup (c_labels c) (l_branch_len L))];
           l_node_idx := l_node_idx L;
           l_int_branches := l_int_branches L ++ [(c_name c, internal_structure secs 0)];
           l_int_nodes := l_int_nodes L;
           l_branch_len := l_branch_len L + sumz secs; l_node_len := l_node_len L |}
    end in
  (* create_node_lookups *)
  match c_node c with
  | None => L1
  | Some (nm, None) =>
      {| l_branch_ft := l_branch_ft L1;
         l_node_ft := l_node_ft L1 ++ [(nm, (l_node_len L1, l_node_len L1 + n))];
         l_branch_idx := l_branch_idx L1;
         l_node_idx := l_node_idx L1 ++ [(nm, mk_index_lookup (c_labels c) (l_node_len L1))];
         l_int_branches := l_int_branches L1; l_int_nodes := l_int_nodes L1;
         l_branch_len := l_branch_len L1; l_node_len := l_node_len L1 + n |}
  | Some (nm, Some cnt) =>
      if sumz cnt >? 0 then
      {| l_branch_ft := l_branch_ft L1;
         l_node_ft := l_node_ft L1 ++ [(nm, (l_node_len L1, l_node_len L1 + sumz cnt))];
         l_branch_idx := l_branch_idx L1; l_node_idx := l_node_idx L1;
         l_int_branches := l_int_branches L1;
         l_int_nodes := l_int_nodes L1 ++ [(c_name c, internal_structure cnt (l_node_len L1))];
         l_branch_len := l_branch_len L1; l_node_len := l_node_len L1 + sumz cnt |}
      else L1
  end.

Definition create_lookups (cs : list comp) : lookups :=
  fold_left lookups_step cs
    {| l_branch_ft := []; l_node_ft := []; l_branch_idx := []; l_node_idx := [];
       l_int_branches := []; l_int_nodes := []; l_branch_len := 0; l_node_len := 0 |}.

(* ------------------------------------------------------------------ argsort (model of np.argsort) *)
Module KeyPos <: TotalLeBool.
  Definition t := (Z * nat)%type.
  Definition leb (x y : t) := fst x <=? fst y.
  Theorem leb_total : forall a1 a2, is_true (leb a1 a2) \/ is_true (leb a2 a1).
  Proof. intros [a ?] [b ?]; unfold leb, is_true; simpl. destruct (Z.leb_spec a b); auto.
         right. apply Z.leb_le. lia. Qed.
End KeyPos.
Module KPSort := Sort KeyPos.

Definition argsort (ks : list Z) : list nat :=
  map snd (KPSort.sort (combine ks (seq 0 (length ks)))).

(* ------------------------------------------------------------------ _sum_by_group, any commutative ring *)
Section SBG.
  Context {A : Type} (zero : A) (add : A -> A -> A).

  Definition permute {X} (d : X) (order : list nat) (xs : list X) : list X :=
    map (fun i => nth i xs d) order.

  (* index = ones(bool); index[:-1] = indices[1:] != indices[:-1] *)
  Fixpoint gmask (ks : list Z) : list bool :=
    match ks with
    | [] => []
    | k :: r => (match r with [] => true | k' :: _ => negb (k' =? k) end) :: gmask r
    end.

  (* starts = flatnonzero(append(True, index[:-1]))[:len(index)] as a mask: the first position of every group *)
  Fixpoint fmask_from (prev : Z) (l : list Z) : list bool :=
    match l with [] => [] | k :: r => negb (k =? prev) :: fmask_from k r end.
  Definition fmask (ks : list Z) : list bool :=
    match ks with [] => [] | k :: r => true :: fmask_from k r end.

  (* np.add.reduceat(vs, flatnonzero(m)) for a start mask m (strictly increasing starts): the sums of the segments
     [start_i, start_{i+1}).  [seg] returns (sum of the leading elements that belong to the segment opened further
     left, sums of the segments that start inside the list) *)
  Fixpoint seg (m : list bool) (vs : list A) : A * list A :=
    match m, vs with
    | b :: mr, v :: vr =>
        let r := seg mr vr in
        if b then (zero, add v (fst r) :: snd r) else (add v (fst r), snd r)
    | _, _ => (zero, [])
    end.
  Definition segsum (m : list bool) (vs : list A) : list A := snd (seg m vs).

  (* _sum_by_group_sorted (one value column; NaN-free values), /repo fafb76b: group sums by reduceat *)
  Definition sbg_sorted (ks : list Z) (vs : list A) : list Z * list A :=
    (select (gmask ks) ks, segsum (fmask ks) vs).

  (* _sum_by_group_np; [order] is what np.argsort returned *)
  Definition sbg_np (order : list nat) (ks : list Z) (vs : list A) : list Z * list A :=
    sbg_sorted (permute 0 order ks) (permute zero order vs).

  (* _sum_values_by_index: bucket arrays of size max_ind + 2 as functions *)
  Definition bucket_step (st : (Z -> Z) * (Z -> A)) (kv : Z * A) : (Z -> Z) * (Z -> A) :=
    let i1 := fst kv + 1 in
    (fun j => if j =? i1 then i1 else fst st j,
     fun j => if j =? i1 then add (snd st j) (snd kv) else snd st j).

  Definition sbg_bucket (ks : list Z) (vs : list A) : list Z * list A :=
    let mx := max_list ks in
    let st := fold_left bucket_step (combine ks vs) (fun _ => 0, fun _ => zero) in
    let pos := filter (fun j => 0 <? fst st j) (zrange (mx + 2)) in
    (map (fun j => fst st j - 1) pos, map (snd st) pos).

  (* the dispatch of _sum_by_group / _sum_by_group_numba *)
  Definition bucket_cond (ks : list Z) : bool :=
    let mx := max_list ks in let n := Z.of_nat (length ks) in
    ((mx <? 100000) || (mx <? 2 * n)) && (mx <? 10 * n).

  Definition sbg (use_numba numba_installed : bool) (order : list nat) (ks : list Z) (vs : list A)
    : list Z * list A :=
    if use_numba && numba_installed then
      match ks with
      | [] => (ks, vs)
      | _ => if bucket_cond ks then sbg_bucket ks vs else sbg_np order ks vs
      end
    else sbg_np order ks vs.

  (* specification: sorted distinct keys, per-key sums *)
  Fixpoint ins_dedup (x : Z) (l : list Z) : list Z :=
    match l with
    | [] => [x]
    | y :: r => if x <? y then x :: l else if x =? y then l else y :: ins_dedup x r
    end.
  Definition distinct_sorted (ks : list Z) : list Z := fold_right ins_dedup [] ks.

  Definition sum_pairs (k : Z) (l : list (Z * A)) : A :=
    fold_right (fun kv s => if fst kv =? k then add (snd kv) s else s) zero l.

  Definition sbg_spec (ks : list Z) (vs : list A) : list Z * list A :=
    let dk := distinct_sorted ks in (dk, map (fun k => sum_pairs k (combine ks vs)) dk).
End SBG.

(* several value columns, as the callers use it *)
Definition sbg_cols_Z (use_numba numba_installed : bool) (ks : list Z) (cols : list (list Z))
  : list Z * list (list Z) :=
  (fst (sbg 0 Z.add use_numba numba_installed (argsort ks) ks (repeat 0 (length ks))),
   map (fun c => snd (sbg 0 Z.add use_numba numba_installed (argsort ks) ks c)) cols).

Definition spec_cols_Z (ks : list Z) (cols : list (list Z)) : list Z * list (list Z) :=
  (distinct_sorted ks, map (fun c => snd (sbg_spec 0 Z.add ks c)) cols).

(* ------------------------------------------------------------------ comparison helpers for cases files *)
Fixpoint list_eqb {X} (e : X -> X -> bool) (a b : list X) : bool :=
  match a, b with
  | [], [] => true
  | x :: ar, y :: br => e x y && list_eqb e ar br
  | _, _ => false
  end.
Definition zl_eqb := list_eqb Z.eqb.
Definition zll_eqb := list_eqb zl_eqb.
Definition zp_eqb (a b : Z * Z) := (fst a =? fst b) && (snd a =? snd b).
Definition zpl_eqb := list_eqb zp_eqb.

Fixpoint first_bad_from {C} (ok : C -> bool) (cs : list C) (i : nat) : option nat :=
  match cs with
  | [] => None
  | c :: r => if ok c then first_bad_from ok r (S i) else Some i
  end.

Definition summary {C} (ok : C -> bool) (cs : list C) : nat * nat * Z :=
  (length cs, length (filter (fun c => negb (ok c)) cs),
   match first_bad_from ok cs 0 with Some i => Z.of_nat i | None => -1 end).

(* one _sum_by_group case: the real function's output is carried in the case *)
Record sbg_case := { sc_numba : bool; sc_keys : list Z; sc_cols : list (list Z);
                     sc_out_keys : list Z; sc_out_cols : list (list Z) }.
Definition sbg_case_ok (c : sbg_case) : bool :=
  let m := sbg_cols_Z (sc_numba c) true (sc_keys c) (sc_cols c) in
  let s := spec_cols_Z (sc_keys c) (sc_cols c) in
  zl_eqb (fst m) (sc_out_keys c) && zll_eqb (snd m) (sc_out_cols c)
  && zl_eqb (fst s) (sc_out_keys c) && zll_eqb (snd s) (sc_out_cols c).

(* one create_lookups case *)
Record lk_case := {
  lc_comps : list comp;
  lc_branch_ft : list (nat * (Z * Z)); lc_node_ft : list (nat * (Z * Z));
  lc_branch_idx : list (nat * (Z * list (Z * Z)));      (* table, (len, nonneg entries) *)
  lc_node_idx : list (nat * (Z * list (Z * Z)));
  lc_int_branches : list (nat * list (Z * Z)); lc_int_nodes : list (nat * list (Z * Z));
  lc_branch_len : Z; lc_node_len : Z }.

Definition ft_eqb (a b : list (nat * (Z * Z))) : bool :=
  list_eqb (fun x y => Nat.eqb (fst x) (fst y) && zp_eqb (snd x) (snd y)) a b.
Definition idx_eqb (a : list (nat * sarr)) (b : list (nat * (Z * list (Z * Z)))) : bool :=
  (Nat.eqb (length a) (length b)) &&
  forallb (fun xy => Nat.eqb (fst (fst xy)) (fst (snd xy))
                     && sarr_matches (snd (fst xy)) (fst (snd (snd xy))) (snd (snd (snd xy))))
          (combine a b).
Definition int_eqb (a b : list (nat * list (Z * Z))) : bool :=
  list_eqb (fun x y => Nat.eqb (fst x) (fst y) && zpl_eqb (snd x) (snd y)) a b.

Definition lk_case_ok (c : lk_case) : bool :=
  let L := create_lookups (lc_comps c) in
  ft_eqb (l_branch_ft L) (lc_branch_ft c) && ft_eqb (l_node_ft L) (lc_node_ft c)
  && idx_eqb (l_branch_idx L) (lc_branch_idx c) && idx_eqb (l_node_idx L) (lc_node_idx c)
  && int_eqb (l_int_branches L) (lc_int_branches c) && int_eqb (l_int_nodes L) (lc_int_nodes c)
  && (l_branch_len L =? lc_branch_len c) && (l_node_len L =? lc_node_len c).
