(* C06 - list facts ([combine], [select], [skipn]), then proofs about the lookup and grouped-sum models (all sizes,
   all labels). *)
From Coq Require Import ZArith List Bool Lia Ring_theory Ring Sorting.Sorted Sorting.Permutation.
From PP Require Import C06.Model.
Import ListNotations.
Open Scope Z_scope.

Lemma map_fst_combine {X Y} (a : list X) (b : list Y) :
  length a = length b -> map fst (combine a b) = a.
Proof. revert b. induction a; destruct b; simpl; intros; try discriminate; auto. f_equal. auto. Qed.

Lemma map_snd_combine {X Y} (a : list X) (b : list Y) :
  length a = length b -> map snd (combine a b) = b.
Proof. revert b. induction a; destruct b; simpl; intros; try discriminate; auto. f_equal. auto. Qed.

Lemma in_combine_fst {X Y} (a : list X) (b : list Y) p : In p (combine a b) -> In (fst p) a.
Proof. destruct p. apply in_combine_l. Qed.

Lemma nth_map_default {X Y} (g : X -> Y) l : forall k d d', (k < length l)%nat -> nth k (map g l) d = g (nth k l d').
Proof. induction l; intros [|k] d d' H; simpl in *; try lia; auto. apply IHl; lia. Qed.

Lemma NoDup_map_inj_in {X Y} (f : X -> Y) (l : list X) :
  (forall a b, In a l -> In b l -> f a = f b -> a = b) -> NoDup l -> NoDup (map f l).
Proof.
  induction l as [|x l IH]; intros Hinj Hnd; simpl; constructor.
  - inversion Hnd; subst. intro Hin. apply in_map_iff in Hin. destruct Hin as [y [E Hy]].
    assert (y = x) by (apply Hinj; simpl; auto). subst. contradiction.
  - inversion Hnd; subst. apply IH; auto. intros; apply Hinj; simpl; auto.
Qed.

Lemma select_in {X} m (xs : list X) y : In y (select m xs) -> In y xs.
Proof.
  revert xs. induction m as [|b mr IH]; intros xs H; simpl in *; [tauto|].
  destruct xs; [tauto|]. destruct b; simpl in *; [destruct H; auto|]; right; auto.
Qed.

Lemma select_map {X Y} (g : X -> Y) m : forall xs, select m (map g xs) = map g (select m xs).
Proof. induction m as [|b m IH]; intros [|x xs]; simpl; auto. destruct b; simpl; now rewrite IH. Qed.

Lemma select_combine {X Y} m : forall (xs : list X) (ys : list Y),
  select m (combine xs ys) = combine (select m xs) (select m ys).
Proof.
  induction m as [|b m IH]; intros [|x xs] [|y ys]; simpl; auto.
  - now destruct (if b then x :: select m xs else select m xs).
  - destruct b; simpl; now rewrite IH.
Qed.

Lemma nth_skipn {X} (d : X) : forall f (xs : list X) k, nth k (skipn f xs) d = nth (f + k) xs d.
Proof. induction f as [|f IH]; intros xs k; simpl; auto. destruct xs; [now destruct k|]. apply IH. Qed.

Lemma skipn_add {X} : forall a b (xs : list X), skipn b (skipn a xs) = skipn (a + b) xs.
Proof. induction a as [|a IH]; intros b [|x xs]; simpl; auto. apply skipn_nil. Qed.

Lemma fold_get_notin (ws : list (Z * Z)) i cur :
  ~ In i (map fst ws) -> fold_left (fun c w => if fst w =? i then snd w else c) ws cur = cur.
Proof.
  revert cur. induction ws as [|[j v] r IH]; intros cur H; simpl in *; auto.
  destruct (Z.eqb_spec j i); [exfalso; apply H; auto|]. apply IH. intro; apply H; auto.
Qed.

Lemma fold_get_in (ws : list (Z * Z)) i v cur :
  NoDup (map fst ws) -> In (i, v) ws ->
  fold_left (fun c w => if fst w =? i then snd w else c) ws cur = v.
Proof.
  revert cur. induction ws as [|[j u] r IH]; intros cur Hnd Hin; simpl in *; [tauto|].
  inversion Hnd as [|? ? Hn Hr]; subst. destruct Hin as [E|Hin].
  - inversion E; subst. rewrite Z.eqb_refl. apply fold_get_notin; auto.
  - apply IH; auto.
Qed.

Lemma zrange_length n : length (zrange (Z.of_nat n)) = n.
Proof. unfold zrange. now rewrite map_length, seq_length, Nat2Z.id. Qed.

Lemma zrange_nth n k : (k < n)%nat -> nth k (zrange (Z.of_nat n)) 0 = Z.of_nat k.
Proof.
  intros H. unfold zrange. rewrite Nat2Z.id.
  change 0 with (Z.of_nat 0). rewrite map_nth. now rewrite seq_nth.
Qed.

Lemma zrange_ssorted n : StronglySorted Z.lt (zrange n).
Proof.
  unfold zrange. generalize (Z.to_nat n) as m. intros m. generalize 0%nat as s.
  induction m; intros s; simpl; constructor; auto.
  apply Forall_forall. intros x Hx. apply in_map_iff in Hx. destruct Hx as [y [<- Hy]].
  apply in_seq in Hy. lia.
Qed.

Lemma zrange_in n x : In x (zrange n) <-> 0 <= x < n.
Proof.
  unfold zrange. rewrite in_map_iff. split.
  - intros [y [<- Hy]]. apply in_seq in Hy. lia.
  - intros H. exists (Z.to_nat x). split; [lia|]. apply in_seq. lia.
Qed.

Lemma max_list_ge l x : In x l -> x <= max_list l.
Proof. induction l; simpl; [tauto|]. intros [->|H]; [lia|]. specialize (IHl H). lia. Qed.

Lemma max_list_nonneg l : 0 <= max_list l.
Proof. induction l; simpl; lia. Qed.

Lemma lookup_hit idx start k :
  NoDup idx -> (k < length idx)%nat ->
  sget (mk_index_lookup idx start) (nth k idx 0) = start + Z.of_nat k.
Proof.
  intros Hnd Hk. unfold sget, mk_index_lookup; simpl.
  set (vs := map (fun k0 => start + k0) (zrange (Z.of_nat (length idx)))).
  assert (Hl : length vs = length idx) by (unfold vs; now rewrite map_length, zrange_length).
  apply fold_get_in.
  - now rewrite map_fst_combine.
  - replace (start + Z.of_nat k) with (nth k vs 0).
    + rewrite <- (combine_nth idx vs k 0 0) by auto. apply nth_In. rewrite combine_length, Hl, Nat.min_id. exact Hk.
    + unfold vs. rewrite (nth_map_default _ _ k 0 0) by (now rewrite zrange_length). now rewrite zrange_nth.
Qed.

Lemma lookup_miss idx start l : ~ In l idx -> sget (mk_index_lookup idx start) l = -1.
Proof.
  intros H. unfold sget, mk_index_lookup; simpl. apply fold_get_notin.
  intro Hin. apply in_map_iff in Hin. destruct Hin as [p [<- Hin]]. apply H. eapply in_combine_fst; eauto.
Qed.

Lemma lookup_len idx start l :
  (forall x, In x idx -> 0 <= x) -> In l idx -> 0 <= l < alen (mk_index_lookup idx start).
Proof.
  intros Hpos Hin. unfold mk_index_lookup; simpl. destruct idx; [inversion Hin|].
  pose proof (max_list_ge _ _ Hin). specialize (Hpos _ Hin). lia.
Qed.

(* relabelling: the position found for a label does not depend on the label values *)
Lemma lookup_relabel_in (rho : Z -> Z) idx start l :
  NoDup idx -> (forall a b, In a idx -> In b idx -> rho a = rho b -> a = b) -> In l idx ->
  sget (mk_index_lookup (map rho idx) start) (rho l) = sget (mk_index_lookup idx start) l.
Proof.
  intros Hnd Hinj Hin. apply In_nth with (d := 0) in Hin. destruct Hin as [k [Hk <-]].
  rewrite lookup_hit by auto. rewrite <- (nth_map_default rho idx k 0 0) by auto.
  apply lookup_hit; [now apply NoDup_map_inj_in|now rewrite map_length].
Qed.

Lemma cumsum_z_length a l : length (cumsum_z a l) = length l.
Proof. revert a. induction l; simpl; auto. Qed.

Lemma cumsum_z_nth a l k : (k < length l)%nat ->
  nth k (cumsum_z a l) 0 = a + sumz (firstn (S k) l).
Proof.
  revert a k. induction l as [|x r IH]; intros a k H; [simpl in H; lia|].
  destruct k.
  - simpl. lia.
  - change (nth (S k) (cumsum_z a (x :: r)) 0) with (nth k (cumsum_z (a + x) r) 0).
    rewrite IH by (simpl in H; lia).
    change (firstn (S (S k)) (x :: r)) with (x :: firstn (S k) r).
    change (sumz (x :: firstn (S k) r)) with (x + sumz (firstn (S k) r)). lia.
Qed.

Lemma sumz_firstn_S l : forall k, sumz (firstn (S k) l) = sumz (firstn k l) + nth k l 0.
Proof.
  induction l as [|x r IH]; intros k.
  - destruct k; reflexivity.
  - destruct k.
    + simpl. lia.
    + change (firstn (S (S k)) (x :: r)) with (x :: firstn (S k) r).
      change (firstn (S k) (x :: r)) with (x :: firstn k r).
      change (nth (S k) (x :: r) 0) with (nth k r 0).
      specialize (IH k). unfold sumz in *. cbn [fold_right]. lia.
Qed.

Lemma ssorted_unique (l1 l2 : list Z) :
  StronglySorted Z.lt l1 -> StronglySorted Z.lt l2 -> (forall x, In x l1 <-> In x l2) -> l1 = l2.
Proof.
  revert l2. induction l1 as [|a r IH]; intros l2 H1 H2 Hm.
  - destruct l2; auto. exfalso. apply (Hm z). simpl; auto.
  - destruct l2 as [|b s]. { exfalso. apply (Hm a). simpl; auto. }
    inversion H1 as [|? ? Hr Ha]; subst. inversion H2 as [|? ? Hs Hb]; subst.
    rewrite Forall_forall in Ha, Hb.
    assert (a = b).
    { destruct (proj1 (Hm a) (or_introl eq_refl)) as [->|Hin]; auto.
      destruct (proj2 (Hm b) (or_introl eq_refl)) as [->|Hin2]; auto.
      specialize (Ha _ Hin2). specialize (Hb _ Hin). lia. }
    subst b. f_equal. apply IH; auto. intros x. split; intros Hx.
    + destruct (proj1 (Hm x) (or_intror Hx)) as [->|]; auto. specialize (Ha _ Hx). lia.
    + destruct (proj2 (Hm x) (or_intror Hx)) as [->|]; auto. specialize (Hb _ Hx). lia.
Qed.

Lemma ssorted_NoDup (l : list Z) : StronglySorted Z.lt l -> NoDup l.
Proof.
  induction 1 as [|a l Hs IH Hall]; constructor; auto.
  intro Hin. rewrite Forall_forall in Hall. specialize (Hall _ Hin). lia.
Qed.

Lemma sorted_NoDup_ssorted (l : list Z) : Sorted Z.le l -> NoDup l -> StronglySorted Z.lt l.
Proof.
  intros Hs Hnd. apply Sorted_StronglySorted in Hs; [|intros ? ? ?; lia].
  induction Hs as [|a l Hs IH Hall]; constructor.
  - apply IH. now inversion Hnd.
  - inversion Hnd as [|? ? Hn _]; subst. rewrite Forall_forall in *. intros x Hx.
    specialize (Hall _ Hx). assert (x <> a) by (intro; subst; contradiction). lia.
Qed.

Lemma filter_ssorted (P : Z -> bool) l : StronglySorted Z.lt l -> StronglySorted Z.lt (filter P l).
Proof.
  induction 1; simpl; [constructor|]. destruct (P a); auto. constructor; auto.
  rewrite Forall_forall in *. intros x Hx. apply filter_In in Hx. apply H0. tauto.
Qed.

Lemma map_pred_ssorted l : StronglySorted Z.lt l -> StronglySorted Z.lt (map (fun j => j - 1) l).
Proof.
  induction 1; simpl; constructor; auto.
  rewrite Forall_forall in *. intros x Hx. apply in_map_iff in Hx. destruct Hx as [y [<- Hy]].
  specialize (H0 _ Hy). lia.
Qed.

Lemma sorted_head_le k l : Sorted Z.le (k :: l) -> forall x, In x l -> k <= x.
Proof.
  intros H. apply Forall_forall, Sorted_extends; auto. intros ? ? ?; lia.
Qed.

Lemma ins_dedup_in x l y : In y (ins_dedup x l) <-> y = x \/ In y l.
Proof.
  assert (E : y = x <-> x = y) by (split; intro; subst; reflexivity). rewrite E. clear E.
  induction l as [|a r IH]; simpl; [tauto|].
  destruct (Z.ltb_spec x a); simpl; [tauto|].
  destruct (Z.eqb_spec x a); simpl; [subst|]; tauto.
Qed.

Lemma ins_dedup_sorted x l : StronglySorted Z.lt l -> StronglySorted Z.lt (ins_dedup x l).
Proof.
  induction l as [|a r IH]; intros H; simpl.
  - repeat constructor.
  - inversion H as [|? ? Hr Ha]; subst. rewrite Forall_forall in Ha.
    destruct (Z.ltb_spec x a).
    + constructor; auto. constructor; [lia|]. apply Forall_forall. intros y Hy. specialize (Ha _ Hy). lia.
    + destruct (Z.eqb_spec x a); auto. constructor; auto.
      apply Forall_forall. intros y Hy. apply ins_dedup_in in Hy. destruct Hy as [->|Hy]; [lia|auto].
Qed.

Lemma distinct_sorted_in ks y : In y (distinct_sorted ks) <-> In y ks.
Proof. induction ks; simpl; [tauto|]. rewrite ins_dedup_in, IHks. intuition. Qed.

Lemma distinct_sorted_sorted ks : StronglySorted Z.lt (distinct_sorted ks).
Proof. induction ks; simpl; [constructor|]. now apply ins_dedup_sorted. Qed.

Lemma distinct_sorted_unique ks l :
  StronglySorted Z.lt l -> (forall x, In x l <-> In x ks) -> l = distinct_sorted ks.
Proof.
  intros Hl Hm. apply ssorted_unique; auto using distinct_sorted_sorted.
  intros x. now rewrite distinct_sorted_in.
Qed.

(* [select (gmask ks) ks]: the last element of every run of equal keys *)
Lemma select_gmask_cons2 k k' kr :
  select (gmask (k :: k' :: kr)) (k :: k' :: kr) =
  if k' =? k then select (gmask (k' :: kr)) (k' :: kr) else k :: select (gmask (k' :: kr)) (k' :: kr).
Proof.
  change (select (gmask (k :: k' :: kr)) (k :: k' :: kr)) with
    (if negb (k' =? k) then k :: select (gmask (k' :: kr)) (k' :: kr) else select (gmask (k' :: kr)) (k' :: kr)).
  now destruct (k' =? k).
Qed.

Lemma select_gmask_cons_head k kr : exists dr, select (gmask (k :: kr)) (k :: kr) = k :: dr.
Proof.
  induction kr as [|k' kr IH]; [exists []; reflexivity|]. rewrite select_gmask_cons2.
  destruct (Z.eqb_spec k' k) as [->|]; [exact IH|eexists; reflexivity].
Qed.

Lemma select_gmask_head k kr : exists dr, select (gmask (k :: kr)) (k :: kr) = k :: dr
  \/ (exists k' kr', kr = k' :: kr' /\ k' = k /\ select (gmask (k :: kr)) (k :: kr) = select (gmask kr) kr).
Proof. destruct (select_gmask_cons_head k kr) as [dr E]. exists dr. now left. Qed.

Lemma select_gmask_in ks x : In x ks -> In x (select (gmask ks) ks).
Proof.
  induction ks as [|k kr IH]; intros H; [inversion H|].
  destruct kr as [|k' kr']; [simpl in *; tauto|].
  rewrite select_gmask_cons2. destruct (Z.eqb_spec k' k).
  - destruct H as [<-|H]; [subst; apply IH; simpl; auto|auto].
  - destruct H as [<-|H]; simpl; auto.
Qed.

Lemma select_gmask_ssorted ks : Sorted Z.le ks -> StronglySorted Z.lt (select (gmask ks) ks).
Proof.
  induction ks as [|k kr IH]; intros Hs; [constructor|].
  assert (Hs' : Sorted Z.le kr) by (inversion Hs; auto).
  pose proof (sorted_head_le _ _ Hs) as Hle.
  destruct kr as [|k' kr']; [simpl; repeat constructor|].
  rewrite select_gmask_cons2. destruct (Z.eqb_spec k' k); auto.
  constructor; auto. apply Forall_forall. intros x Hx. apply select_in in Hx.
  pose proof (Hle k' (or_introl eq_refl)). pose proof (sorted_head_le _ _ Hs') as Hle'.
  destruct Hx as [<-|Hx]; [lia|]. specialize (Hle' _ Hx). lia.
Qed.

Lemma select_gmask_distinct ks : Sorted Z.le ks -> select (gmask ks) ks = distinct_sorted ks.
Proof.
  intros Hs. apply distinct_sorted_unique; [now apply select_gmask_ssorted|].
  intros x. split; [apply select_in|apply select_gmask_in].
Qed.

Lemma select_gmask_sorted_cons k kr : Sorted Z.le (k :: kr) ->
  exists dr, select (gmask (k :: kr)) (k :: kr) = k :: dr /\ forall d, In d dr -> k < d.
Proof.
  intros Hs. destruct (select_gmask_cons_head k kr) as [dr E]. exists dr. split; auto.
  pose proof (select_gmask_ssorted _ Hs) as Hss. rewrite E in Hss.
  inversion Hss; subst. now apply Forall_forall.
Qed.

Lemma map_nth_seq {X} (d : X) (xs : list X) : map (fun i => nth i xs d) (seq 0 (length xs)) = xs.
Proof.
  induction xs as [|x r IH]; simpl; auto. f_equal. rewrite <- seq_shift, map_map. exact IH.
Qed.

Lemma permute_perm {X} (d : X) order (xs : list X) :
  Permutation order (seq 0 (length xs)) -> Permutation (permute d order xs) xs.
Proof. intros Hp. apply (Permutation_map (fun i => nth i xs d)) in Hp. now rewrite map_nth_seq in Hp. Qed.

Lemma combine_permute {X Y} (dx : X) (dy : Y) order (xs : list X) (ys : list Y) : length ys = length xs ->
  combine (permute dx order xs) (permute dy order ys) = permute (dx, dy) order (combine xs ys).
Proof.
  intros Hl. unfold permute. induction order; simpl; auto. rewrite combine_nth by auto. now f_equal.
Qed.

Section SBGP.
  Context {A : Type} (zero one : A) (add mul sub : A -> A -> A) (opp : A -> A)
          (Rth : ring_theory zero one add mul sub opp eq).
  Add Ring Aring : Rth.

  Notation sum_pairs := (sum_pairs zero add).
  Notation seg := (seg zero add).
  Notation segsum := (segsum zero add).
  Notation sbg_sorted := (sbg_sorted zero add).
  Notation sbg_np := (sbg_np zero add).
  Notation sbg_bucket := (sbg_bucket zero add).
  Notation sbg_spec := (sbg_spec zero add).

  Lemma seg_cons (b : bool) mr v vr :
    seg (b :: mr) (v :: vr) =
    if b then (zero, add v (fst (seg mr vr)) :: snd (seg mr vr)) else (add v (fst (seg mr vr)), snd (seg mr vr)).
  Proof. reflexivity. Qed.

  Lemma sum_pairs_cons k j v (l : list (Z * A)) :
    sum_pairs k ((j, v) :: l) = if j =? k then add v (sum_pairs k l) else sum_pairs k l.
  Proof. reflexivity. Qed.

  Lemma sum_pairs_none k (l : list (Z * A)) : (forall kv, In kv l -> fst kv <> k) -> sum_pairs k l = zero.
  Proof.
    induction l as [|[j v] r IH]; intros H; simpl; auto.
    destruct (Z.eqb_spec j k); [exfalso; apply (H (j, v)); simpl; auto|]. apply IH. intros; apply H; simpl; auto.
  Qed.

  Lemma sum_pairs_skip k v (l : list (Z * A)) dr : (forall d, In d dr -> k < d) ->
    map (fun d => sum_pairs d ((k, v) :: l)) dr = map (fun d => sum_pairs d l) dr.
  Proof.
    intros Hgt. apply map_ext_in. intros d Hd. specialize (Hgt d Hd).
    rewrite sum_pairs_cons. destruct (Z.eqb_spec k d); [lia|reflexivity].
  Qed.

  (* on sorted keys [seg] over the first-of-group mask carries the sum of the current key to the left, and the segments
     that start inside the list are the sums of the remaining distinct keys *)
  Lemma seg_fmask_sorted kr : forall k vr, Sorted Z.le (k :: kr) -> length vr = length kr ->
    seg (fmask_from k kr) vr =
    (sum_pairs k (combine kr vr),
     map (fun d => sum_pairs d (combine kr vr)) (tl (select (gmask (k :: kr)) (k :: kr)))).
  Proof.
    induction kr as [|k' kr IH]; intros k vr Hs Hl; destruct vr as [|v vr]; try discriminate; [reflexivity|].
    assert (Hs' : Sorted Z.le (k' :: kr)) by (inversion Hs; auto).
    destruct (select_gmask_sorted_cons k' kr Hs') as [dr [Hd Hgt]].
    cbn [fmask_from combine]. rewrite seg_cons, IH by (auto; simpl in Hl; lia). rewrite select_gmask_cons2, Hd.
    cbn [fst snd tl]. destruct (Z.eqb_spec k' k) as [->|NE]; cbn [negb tl map].
    - now rewrite sum_pairs_skip, sum_pairs_cons, Z.eqb_refl.
    - rewrite sum_pairs_skip by auto. rewrite !sum_pairs_cons, Z.eqb_refl.
      destruct (Z.eqb_spec k' k); [contradiction|]. f_equal. symmetry. apply sum_pairs_none.
      (* every remaining key is >= k' > k *)
      intros kv Hin. apply in_combine_fst in Hin.
      pose proof (sorted_head_le _ _ Hs k' (or_introl eq_refl)). pose proof (sorted_head_le _ _ Hs' _ Hin). lia.
  Qed.

  (* _sum_by_group_sorted on sorted keys = specification *)
  Theorem sbg_sorted_spec ks vs : Sorted Z.le ks -> length vs = length ks ->
    sbg_sorted ks vs = sbg_spec ks vs.
  Proof.
    intros Hs Hl. unfold Model.sbg_sorted, Model.sbg_spec. rewrite <- (select_gmask_distinct ks Hs). f_equal.
    destruct ks as [|k kr], vs as [|v vr]; try discriminate; [reflexivity|].
    destruct (select_gmask_sorted_cons k kr Hs) as [dr [Hd Hgt]].
    unfold Model.segsum, fmask. rewrite seg_cons, seg_fmask_sorted by (auto; simpl in Hl; lia). rewrite Hd.
    cbn [fst snd tl map combine]. now rewrite sum_pairs_skip, sum_pairs_cons, Z.eqb_refl.
  Qed.

  Lemma sum_pairs_perm k (l1 l2 : list (Z * A)) : Permutation l1 l2 -> sum_pairs k l1 = sum_pairs k l2.
  Proof.
    induction 1; simpl; auto.
    - now rewrite IHPermutation.
    - destruct (fst y =? k), (fst x =? k); auto. ring.
    - congruence.
  Qed.

  Lemma sbg_spec_permute ks vs order : Permutation order (seq 0 (length ks)) -> length vs = length ks ->
    sbg_spec (permute 0 order ks) (permute zero order vs) = sbg_spec ks vs.
  Proof.
    intros Hp Hl. unfold Model.sbg_spec.
    assert (Hc : Permutation (combine (permute 0 order ks) (permute zero order vs)) (combine ks vs)).
    { rewrite combine_permute by auto. apply permute_perm. now rewrite combine_length, Hl, Nat.min_id. }
    assert (Hk : distinct_sorted (permute 0 order ks) = distinct_sorted ks).
    { apply distinct_sorted_unique; [apply distinct_sorted_sorted|].
      intros x. rewrite distinct_sorted_in. pose proof (permute_perm 0 order ks Hp) as Hpk.
      split; apply Permutation_in; [auto|now apply Permutation_sym]. }
    rewrite Hk. f_equal. apply map_ext. intros k. now apply sum_pairs_perm.
  Qed.

  (* _sum_by_group_np for whatever order argsort returns (stable or not) = specification *)
  Theorem sbg_np_spec order ks vs :
    Permutation order (seq 0 (length ks)) -> Sorted Z.le (permute 0 order ks) -> length vs = length ks ->
    sbg_np order ks vs = sbg_spec ks vs.
  Proof.
    intros Hp Hs Hl. unfold Model.sbg_np. rewrite sbg_sorted_spec; auto.
    - now apply sbg_spec_permute.
    - unfold permute. rewrite !map_length. reflexivity.
  Qed.

  Lemma bucket_fold l : forall st j,
    snd (fold_left (bucket_step add) l st) j = add (snd st j) (sum_pairs (j - 1) l)
    /\ fst (fold_left (bucket_step add) l st) j = (if existsb (fun k => k + 1 =? j) (map fst l) then j else fst st j).
  Proof.
    induction l as [|[k v] r IH]; intros st j; simpl.
    - split; [ring|reflexivity].
    - destruct (IH (bucket_step add st (k, v)) j) as [E1 E2]. rewrite E1, E2. unfold bucket_step; simpl. split.
      + destruct (Z.eqb_spec j (k + 1)), (Z.eqb_spec k (j - 1)); try lia; ring.
      + destruct (existsb (fun k => k + 1 =? j) (map fst r)); [now rewrite orb_true_r|].
        rewrite orb_false_r. destruct (Z.eqb_spec j (k + 1)), (Z.eqb_spec (k + 1) j); try lia; auto.
  Qed.

  (* _sum_values_by_index (bucket accumulation) = specification, for non-negative keys *)
  Theorem sbg_bucket_spec ks vs : (forall k, In k ks -> 0 <= k) -> length vs = length ks ->
    sbg_bucket ks vs = sbg_spec ks vs.
  Proof.
    intros Hpos Hl. unfold Model.sbg_bucket, Model.sbg_spec.
    set (st := fold_left (bucket_step add) (combine ks vs) (fun _ => 0, fun _ => zero)).
    set (pos := filter (fun j => 0 <? fst st j) (zrange (max_list ks + 2))).
    (* bucket j holds (j, sum of the key j - 1) if j - 1 is a key, and is untouched otherwise *)
    assert (Hst : forall j, snd st j = sum_pairs (j - 1) (combine ks vs)
                            /\ fst st j = if existsb (fun k => k + 1 =? j) ks then j else 0).
    { intros j. unfold st. destruct (bucket_fold (combine ks vs) (fun _ => 0, fun _ => zero) j) as [E1 E2].
      rewrite E1, E2, map_fst_combine by auto. split; [simpl; ring|reflexivity]. }
    assert (Hex : forall j, existsb (fun k => k + 1 =? j) ks = true <-> In (j - 1) ks).
    { intros j. rewrite existsb_exists. split.
      - intros [k [Hin E]]. apply Z.eqb_eq in E. now replace (j - 1) with k by lia.
      - intros Hin. exists (j - 1). split; auto. apply Z.eqb_eq. lia. }
    assert (Hpos_in : forall j, In j pos <-> In (j - 1) ks).
    { intros j. unfold pos. rewrite filter_In, zrange_in, (proj2 (Hst j)). split.
      - intros [_ H]. destruct (existsb _ _) eqn:E; [now apply Hex|discriminate].
      - intros H. pose proof (Hpos _ H). pose proof (max_list_ge _ _ H).
        rewrite (proj2 (Hex j) H). split; [lia|]. apply Z.ltb_lt. lia. }
    assert (Hfst : map (fun j => fst st j - 1) pos = map (fun j => j - 1) pos).
    { apply map_ext_in. intros j Hj. apply Hpos_in, Hex in Hj. now rewrite (proj2 (Hst j)), Hj. }
    assert (Hkeys : map (fun j => j - 1) pos = distinct_sorted ks).
    { apply distinct_sorted_unique.
      - apply map_pred_ssorted, filter_ssorted, zrange_ssorted.
      - intros x. rewrite in_map_iff. split.
        + intros [j [<- Hj]]. now apply Hpos_in.
        + intros H. exists (x + 1). split; [lia|]. apply Hpos_in. now replace (x + 1 - 1) with x by lia. }
    rewrite Hfst, <- Hkeys, map_map. f_equal. apply map_ext. intros j. apply Hst.
  Qed.
End SBGP.

(* the model of np.argsort returns an order that the theorems above accept *)
Lemma argsort_perm ks : Permutation (argsort ks) (seq 0 (length ks)).
Proof.
  unfold argsort. apply Permutation_sym.
  rewrite <- (map_snd_combine ks (seq 0 (length ks))) at 1 by (now rewrite seq_length).
  apply Permutation_map, KPSort.Permuted_sort.
Qed.

Lemma argsort_sorted ks : Sorted Z.le (permute 0 (argsort ks) ks).
Proof.
  unfold argsort, permute. rewrite map_map.
  set (S := KPSort.sort (combine ks (seq 0 (length ks)))).
  assert (Hin : forall p, In p S -> nth (snd p) ks 0 = fst p).
  { intros p Hp. apply (Permutation_in _ (Permutation_sym (KPSort.Permuted_sort _))) in Hp.
    apply In_nth with (d := (0, 0%nat)) in Hp. destruct Hp as [i [Hi E]].
    rewrite combine_length, seq_length, Nat.min_id in Hi.
    rewrite combine_nth in E by (now rewrite seq_length). subst p. simpl. now rewrite seq_nth. }
  pose proof (KPSort.Sorted_sort (combine ks (seq 0 (length ks)))) as Hs. fold S in Hs.
  rewrite (map_ext_in _ fst) by exact Hin. clear Hin.
  induction Hs as [|p l Hs IH Hhd]; simpl; constructor; auto.
  destruct Hhd; simpl; constructor. unfold is_true in H. now apply Z.leb_le.
Qed.

(* _sum_by_group: every dispatch outcome equals the specification (any ring, any non-negative keys) *)
Section SBGAll.
  Context {A : Type} (zero one : A) (add mul sub : A -> A -> A) (opp : A -> A)
          (Rth : ring_theory zero one add mul sub opp eq).

  Theorem sbg_all_paths_spec (use_numba numba_installed : bool) order ks vs :
    Permutation order (seq 0 (length ks)) -> Sorted Z.le (permute 0 order ks) ->
    (forall k, In k ks -> 0 <= k) -> length vs = length ks ->
    sbg zero add use_numba numba_installed order ks vs = sbg_spec zero add ks vs.
  Proof.
    intros Hp Hs Hpos Hl. unfold sbg.
    destruct (use_numba && numba_installed).
    - destruct ks as [|k kr].
      + destruct vs; [reflexivity|discriminate].
      + destruct (bucket_cond (k :: kr)).
        * eapply sbg_bucket_spec; eauto.
        * eapply sbg_np_spec; eauto.
    - eapply sbg_np_spec; eauto.
  Qed.

  Corollary sbg_model_order_spec (use_numba numba_installed : bool) ks vs :
    (forall k, In k ks -> 0 <= k) -> length vs = length ks ->
    sbg zero add use_numba numba_installed (argsort ks) ks vs = sbg_spec zero add ks vs.
  Proof. intros. apply sbg_all_paths_spec; auto using argsort_perm, argsort_sorted. Qed.
End SBGAll.
