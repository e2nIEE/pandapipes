(* C13 - proofs over the step model. *)
From Coq Require Import List.
From PP Require Import C13.Model.
Import ListNotations.

Lemma in_rows {A B : Type} (f : A -> B) l t r : In (t, r) (map (fun t => (t, f t)) l) -> r = f t.
Proof. intros H. apply in_map_iff in H. destruct H as [t' [[= <- <-] _]]. reflexivity. Qed.

Section Proofs.
  Variable C V R : Type.
  Variable ceqb : C -> C -> bool.
  Hypothesis ceqb_spec : forall a b, ceqb a b = true <-> a = b.
  Variable spec : desc C V -> option R.
  (* spec looks at the description only through its cells *)
  Hypothesis spec_ext : forall u u', (forall c, u c = u' c) -> spec u = spec u'.
  Variable cells : list C.
  Variable profile : nat -> C -> V.

  Notation set := (set C V ceqb).
  Notation write_step := (write_step C V ceqb cells profile).
  Notation loop := (loop C V R ceqb spec cells profile).
  Notation first_failing := (first_failing C V R ceqb spec cells profile).

  Lemma ceq_dec : forall a b : C, {a = b} + {a <> b}.
  Proof.
    intros a b. destruct (ceqb a b) eqn:E; [left | right].
    - now apply ceqb_spec.
    - intros G. apply ceqb_spec in G. congruence.
  Qed.

  Lemma fold_other : forall (l : list C) t u c, ~ In c l ->
    fold_left (fun u c => set c (profile t c) u) l u c = u c.
  Proof.
    induction l as [|x r IH]; intros t u c H; simpl; auto.
    rewrite IH by (intros G; apply H; right; auto).
    unfold Model.set. destruct (ceqb c x) eqn:E; auto.
    apply ceqb_spec in E. subst. exfalso. apply H. left. auto.
  Qed.

  Lemma fold_in : forall (l : list C) t u c, In c l ->
    fold_left (fun u c => set c (profile t c) u) l u c = profile t c.
  Proof.
    induction l as [|x r IH]; intros t u c H; simpl; [destruct H|].
    destruct (in_dec ceq_dec c r) as [Hin|Hnin].
    - apply IH. auto.
    - rewrite fold_other by auto. destruct H as [H|H]; [|contradiction]. subst.
      unfold Model.set. now rewrite (proj2 (ceqb_spec c c)).
  Qed.

  (* [fold_in], [fold_other]: a cell after step t is row t if it is controlled and what it was before otherwise;
     so the step forgets what the controlled cells held *)
  Lemma write_step_cell : forall t u u0 c, (~ In c cells -> u c = u0 c) ->
    write_step t u c = write_step t u0 c.
  Proof.
    intros t u u0 c H. unfold Model.write_step.
    destruct (in_dec ceq_dec c cells) as [Hin|Hnin].
    - now rewrite !fold_in.
    - rewrite !fold_other; auto.
  Qed.

  (* for descriptions equal everywhere this needs no law of ceqb *)
  Lemma write_step_ext : forall t (l : list C) (u u' : desc C V), (forall c, u c = u' c) ->
    forall c, fold_left (fun u c => set c (profile t c) u) l u c =
              fold_left (fun u c => set c (profile t c) u) l u' c.
  Proof.
    intros t l. induction l as [|x r IHc]; intros u u' Huu; simpl; auto.
    apply IHc. intros c'. unfold Model.set. destruct (ceqb c' x); auto.
  Qed.

  Definition same_off_cells (u u0 : desc C V) : Prop := forall c, ~ In c cells -> u c = u0 c.

  Lemma write_step_off : forall t u u0, same_off_cells u u0 -> same_off_cells (write_step t u) u0.
  Proof. intros t u u0 H c Hc. unfold Model.write_step. rewrite fold_other; auto. Qed.

  Lemma spec_step : forall t u u0, same_off_cells u u0 -> spec (write_step t u) = spec (write_step t u0).
  Proof. intros t u u0 H. apply spec_ext. intros c. apply write_step_cell, H. Qed.

  (* the prefix of [steps] up to and including the first step whose stand-alone calculation fails: what the loop
     logs without continue_on_divergence (the failing step as None, then it raises) *)
  Fixpoint upto (steps : list nat) (u0 : desc C V) : list nat :=
    match steps with
    | [] => []
    | t :: rest => match spec (write_step t u0) with None => [t] | Some _ => t :: upto rest u0 end
    end.

  (* The loop in closed form.  Started from any description that differs from u0 on controlled cells only, it
     logs the stand-alone result of every step it takes: all of them, in order, with continue_on_divergence. *)
  Lemma loop_closed_form : forall cod steps u u0 log, same_off_cells u u0 ->
    logged C V R (loop cod steps u log) =
      log ++ map (fun t => (t, spec (write_step t u0))) (if cod then steps else upto steps u0) /\
    outcome C V R (loop cod steps u log) =
      if cod then Finished else match first_failing steps u0 with Some t => Raised t | None => Finished end.
  Proof.
    intros cod steps. induction steps as [|s rest IH]; intros u u0 log Hoff; simpl.
    - unfold logged, outcome. destruct cod; simpl; now rewrite app_nil_r.
    - rewrite (spec_step s u u0 Hoff). assert (Hoff' := write_step_off s u u0 Hoff).
      destruct (spec (write_step s u0)) as [row|] eqn:Es.
      + destruct (IH _ u0 (log ++ [(s, Some row)]) Hoff') as [A B]. rewrite A, B, <- app_assoc.
        destruct cod; simpl; now rewrite ?Es.
      + destruct cod.
        * destruct (IH _ u0 (log ++ [(s, None)]) Hoff') as [A B]. rewrite A, B, <- app_assoc. simpl.
          now rewrite Es.
        * unfold logged, outcome. simpl. now rewrite Es.
  Qed.

  Variable derived reads : list C.
  Variable couple : desc C V -> desc C V.
  (* the couplings change only derived cells ... *)
  Hypothesis couple_frame : forall u c, ~ In c derived -> couple u c = u c.
  (* ... whose new value depends only on the cells the couplings read ... *)
  Hypothesis couple_reads : forall u u' c, (forall r, In r reads -> u r = u' r) -> In c derived ->
    couple u c = couple u' c.
  (* ... and no coupling reads what a coupling writes (no chains within one step) *)
  Hypothesis reads_not_derived : forall c, In c reads -> ~ In c derived.

  Notation mstep := (mstep C V ceqb cells couple profile).
  Notation mloop := (mloop C V R ceqb spec cells couple profile).

  Definition same_off_written (u u0 : desc C V) : Prop := forall c, ~ In c cells -> ~ In c derived -> u c = u0 c.

  Lemma mstep_from_any : forall t u u0, same_off_written u u0 -> forall c, mstep t u c = mstep t u0 c.
  Proof.
    intros t u u0 H c. unfold Model.mstep.
    assert (W : forall x, ~ In x derived -> write_step t u x = write_step t u0 x).
    { intros x Hx. apply write_step_cell. auto. }
    destruct (in_dec ceq_dec c derived) as [Hd|Hd].
    - apply couple_reads; auto.
    - rewrite !couple_frame; auto.
  Qed.

  Lemma mstep_off : forall t u u0, same_off_written u u0 -> same_off_written (mstep t u) u0.
  Proof.
    intros t u u0 H c Hc Hd. unfold Model.mstep. rewrite couple_frame; auto.
    unfold Model.write_step. rewrite fold_other; auto.
  Qed.

  (* every row the multinet loop adds is the stand-alone result of its own step *)
  Lemma mloop_rows : forall cod steps u u0 log, same_off_written u u0 ->
    exists l, logged C V R (mloop cod steps u log) = log ++ map (fun t => (t, spec (mstep t u0))) l.
  Proof.
    intros cod steps. induction steps as [|s rest IH]; intros u u0 log Hoff; simpl.
    - exists []. symmetry. apply app_nil_r.
    - rewrite (spec_ext _ _ (mstep_from_any s u u0 Hoff)). assert (Hoff' := mstep_off s u u0 Hoff).
      destruct (spec (mstep s u0)) as [row|] eqn:Es; [|destruct cod].
      + destruct (IH _ u0 (log ++ [(s, Some row)]) Hoff') as [l ->].
        exists (s :: l). simpl. now rewrite Es, <- app_assoc.
      + destruct (IH _ u0 (log ++ [(s, None)]) Hoff') as [l ->].
        exists (s :: l). simpl. now rewrite Es, <- app_assoc.
      + exists [s]. simpl. now rewrite Es.
  Qed.

  Variable control_time_step : nat -> desc C V -> desc C V.
  Variable run_function : desc C V -> option R * desc C V.
  Variable ow_save : nat -> option R -> list (nat * option R) -> list (nat * option R).

  (* ConstControl: time_step(t) writes data_source[t, profile_name] * scale_factor into the controlled cells and
     nothing else, whatever they held *)
  Hypothesis const_control_law : forall t u c, control_time_step t u c = write_step t u c.
  (* the registered run function is pipeflow (Gen/TsWiring) and by C12 it returns spec of the description and leaves
     the description unchanged; a listed error is reported as None *)
  Hypothesis run_law : forall u, fst (run_function u) = spec u /\ forall c, snd (run_function u) c = u c.
  (* OutputWriter: one row per saved step, in the order of the calls *)
  Hypothesis ow_law : forall t r log, ow_save t r log = log ++ [(t, r)].

  Notation pp_loop := (pp_loop C V R control_time_step run_function ow_save).

  (* The loop shaped like pandapower's run_time_step logs what the model logs and ends like it, except that when it
     raises the failing step is not written by the output writer (the model lists it as None) *)
  Definition drop_failed (x : list (nat * option R)) (st : status) : list (nat * option R) :=
    match st with Raised _ => removelast x | Finished => x end.

  Lemma pandapower_loop_lemma : forall cod steps u u' log,
    (forall c, u c = u' c) ->
    logged C V R (pp_loop cod steps u log) =
      drop_failed (logged C V R (loop cod steps u' log)) (outcome C V R (loop cod steps u' log)) /\
    outcome C V R (pp_loop cod steps u log) = outcome C V R (loop cod steps u' log).
  Proof.
    intros cod steps. induction steps as [|t rest IH]; intros u u' log Huu; simpl.
    - unfold logged, outcome. simpl. auto.
    - destruct (run_law (control_time_step t u)) as [Hf Hs].
      destruct (run_function (control_time_step t u)) as [res u2]. simpl in Hf, Hs.
      assert (Heq : forall c, control_time_step t u c = write_step t u' c).
      { intros c. rewrite const_control_law. apply write_step_ext, Huu. }
      rewrite <- (spec_ext _ _ Heq), <- Hf.
      assert (Hu2 : forall c, u2 c = write_step t u' c).
      { intros c. rewrite Hs. apply Heq. }
      destruct res as [r|]; [|destruct cod]; rewrite ?ow_law; auto.
      unfold logged, outcome, drop_failed. simpl. rewrite removelast_last. auto.
  Qed.
End Proofs.
