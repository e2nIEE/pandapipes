(* C01 - the assembled hydraulic system and the Newton update, over a generic commutative ring
   (instantiates at Z and R; closed under the global context).
   [trips] is a concatenation of blocks of triplets.  Each block occupies a known range of rows (lemmas ..._rows)
   and contributes a known sum to a row (lemmas ..._rowsum); together they give the three kinds of rows of the matrix
   (node_row, branch_row, slack_row) and, with the entries of eps, the equations a solution satisfies
   (solves_node, solves_branch, solves_slack).  The balance theorems of C01 and the
   prescribed-value theorems of C03 are read off those equations; the ring identities behind C03's lift, compressor
   and mean laws stand next to them.
   The second half is about _sum_by_group and fancy-index writes: a table grouped by label and written through
   [scatter] puts on position i the sum over the labels that sit on i (ConstFlow loads, set_fixed_node_entries). *)
From Coq Require Import ZArith List Lia Ring.
From PP Require Import C01.Model.
Import ListNotations.

Section Proofs.
  Context {A : Type} (zero one : A) (add mul sub : A -> A -> A) (opp : A -> A)
          (Rth : ring_theory zero one add mul sub opp eq).
  Add Ring Aring : Rth.

  Notation "0" := zero.
  Notation "1" := one.
  Infix "+" := add.
  Infix "*" := mul.
  Infix "-" := sub.
  Notation "- x" := (opp x).

  Notation node := (@node A).
  Notation branch := (@branch A).
  Notation trip := (@trip A).
  Notation rowsum := (rowsum zero add mul).
  Notation nodesum := (nodesum zero add sub).
  Notation trips := (trips zero one opp).
  Notation eps := (eps zero add sub opp).
  Notation eps_nodes := (eps_nodes zero add sub opp).
  Notation eps_slack := (eps_slack zero add sub opp).
  Notation eps_branches := (eps_branches zero).
  Notation solves := (solves zero one add mul sub opp).
  Notation from_trips := (from_trips opp).
  Notation pc_trips := (pc_trips one).
  Notation slack_trips := (slack_trips one).
  Notation slackmass_trips := (slackmass_trips zero opp).
  Notation sfrom_row := (sfrom_row opp).
  Notation load_of := (load_of zero).
  Notation msl_of := (msl_of zero).
  Notation dmsl_of := (dmsl_of zero).
  Notation sumlist := (sumlist zero add).
  Notation inflow := (inflow zero add sub).
  Notation kernel_cols := (kernel_cols one).
  Notation step_msl := (step_msl sub).
  Notation fx_values := (@fx_values A).

  Lemma mapi_length {X Y} (f : nat -> X -> Y) k0 l : length (mapi f k0 l) = length l.
  Proof. revert k0; induction l; simpl; intros; auto. Qed.

  Lemma mapi_nth_error {X Y} (f : nat -> X -> Y) l : forall k0 i,
    nth_error (mapi f k0 l) i = option_map (f (k0 + i)%nat) (nth_error l i).
  Proof.
    induction l as [|a l IH]; intros k0 i; destruct i; simpl; auto.
    - now rewrite Nat.add_0_r.
    - rewrite IH. now replace (S k0 + i)%nat with (k0 + S i)%nat by lia.
  Qed.

  Lemma mapi_map_ext {X Y V} (f : nat -> Y -> V) (h : X -> Y) (g : X -> V) l : forall k0,
    (forall j a, nth_error l j = Some a -> f (k0 + j)%nat (h a) = g a) ->
    mapi f k0 (map h l) = map g l.
  Proof.
    induction l as [|a l IH]; intros k0 H; simpl; [reflexivity|]. f_equal.
    - rewrite <- (H O a eq_refl). now rewrite Nat.add_0_r.
    - apply IH. intros j a' Hj. replace (S k0 + j)%nat with (k0 + S j)%nat by lia. now apply H.
  Qed.

  Lemma positions_spec {X} (p : X -> bool) l : forall k0 s,
    In s (positions p k0 l) <-> exists j x, s = (k0 + j)%nat /\ nth_error l j = Some x /\ p x = true.
  Proof.
    induction l as [|a l IH]; intros k0 s; simpl.
    - split; [tauto|]. intros [[|j] [x [_ [H _]]]]; discriminate.
    - rewrite in_app_iff, IH. split.
      + intros [H|[j [x [-> H]]]].
        * destruct (p a) eqn:E; [|destruct H]. destruct H as [<-|[]].
          exists O, a. now rewrite Nat.add_0_r.
        * exists (S j), x. split; [lia|exact H].
      + intros [[|j] [x [-> [H2 H3]]]].
        * left. injection H2 as ->. rewrite H3, Nat.add_0_r. now left.
        * right. exists j, x. split; [lia|auto].
  Qed.

  Lemma positions_lt {X} (p : X -> bool) l k0 s : In s (positions p k0 l) -> (s < k0 + length l)%nat.
  Proof.
    intros H. apply positions_spec in H. destruct H as [j [x [-> [H _]]]].
    assert (j < length l)%nat by (apply nth_error_Some; congruence). lia.
  Qed.

  Lemma positions_NoDup {X} (p : X -> bool) l : forall k0, NoDup (positions p k0 l).
  Proof.
    induction l as [|a l IH]; intros k0; simpl; [constructor|].
    destruct (p a); simpl; auto. constructor; auto.
    intros H. apply positions_spec in H. destruct H as [j [_ [E _]]]. lia.
  Qed.

  Lemma slack_nodes_spec (ns : list node) s :
    In s (slack_nodes ns) <-> is_slack ns s = true.
  Proof.
    unfold slack_nodes, is_slack, typ_of. rewrite positions_spec. split.
    - intros [j [nd [E [Hj H]]]]. simpl in E. subst j. now rewrite Hj.
    - intros H. destruct (nth_error ns s) as [nd|] eqn:E; [|discriminate]. exists s, nd. auto.
  Qed.

  Lemma NoDup_map_inj {X Y} (f : X -> Y) (l : list X) :
    NoDup l -> (forall x y, In x l -> In y l -> f x = f y -> x = y) -> NoDup (map f l).
  Proof.
    induction 1 as [|a l Ha Hnd IH]; intros Hinj; simpl; constructor.
    - intros Hin. apply in_map_iff in Hin. destruct Hin as [b [E Hb]].
      assert (b = a) by (apply Hinj; simpl; auto). subst. contradiction.
    - apply IH. intros; apply Hinj; simpl; auto.
  Qed.

  Lemma combine_NoDup_fst {X Y} (a : list X) : forall (b : list Y),
    NoDup a -> NoDup (map fst (combine a b)).
  Proof.
    induction a as [|x a IH]; intros b H; simpl; [constructor|].
    destruct b as [|y b]; simpl; [constructor|]. inversion H; subst. constructor; auto.
    intros Hin. apply in_map_iff in Hin. destruct Hin as [[x' y'] [E Hin]]. simpl in E. subst.
    apply in_combine_l in Hin. contradiction.
  Qed.

  Lemma combine_covers {X Y} (a : list X) : forall (b : list Y) c,
    length a = length b -> In c b -> exists k, In (k, c) (combine a b).
  Proof.
    induction a as [|x a IH]; intros b c Hl Hin; destruct b as [|y b]; simpl in *; try discriminate; [tauto|].
    destruct Hin as [->|Hin]; [exists x; now left|].
    destruct (IH b c) as [k Hk]; auto. exists k. now right.
  Qed.

  Lemma map_combine_nth_error {X Y V} (f : X * Y -> V) (d : Y) (a : list X) : forall (b : list Y) k r,
    length b = length a -> nth_error a k = Some r ->
    nth_error (map f (combine a b)) k = Some (f (r, nth k b d)).
  Proof.
    induction a as [|x a IH]; intros b k r Hl Hr; [destruct k; discriminate|].
    destruct b as [|y b]; [discriminate|]. destruct k; simpl in *; [now inversion Hr|]. apply IH; auto.
  Qed.

  Lemma rowsum_app (t1 t2 : list trip) r x : rowsum (t1 ++ t2) r x = rowsum t1 r x + rowsum t2 r x.
  Proof.
    induction t1 as [|[[r' c] v] t1 IH]; simpl; [ring|].
    destruct (Nat.eqb r' r); rewrite IH; ring.
  Qed.

  Lemma rowsum_other (t : list trip) r x :
    Forall (fun tr => fst (fst tr) <> r) t -> rowsum t r x = 0.
  Proof.
    induction 1 as [|[[r' c] v] t H _ IH]; simpl; auto. simpl in H.
    destruct (Nat.eqb_spec r' r); [contradiction|auto].
  Qed.

  Lemma rowsum_outside {lo hi} {t : list trip} :
    Forall (fun tr => (lo <= fst (fst tr) < hi)%nat) t -> forall r x, (r < lo \/ hi <= r)%nat -> rowsum t r x = 0.
  Proof. intros H r x Hr. apply rowsum_other. eapply Forall_impl; [|exact H]. simpl. intros; lia. Qed.

  (* a block with pairwise distinct rows contributes its one entry of row r *)
  Lemma rowsum_unique (t : list trip) r c v x :
    NoDup (map (fun tr => fst (fst tr)) t) -> In (r, c, v) t -> rowsum t r x = v * x c.
  Proof.
    induction t as [|[[r' c'] v'] t IH]; simpl; intros Hnd Hin; [destruct Hin|].
    inversion Hnd as [|? ? Hr' Hnd']; subst. destruct Hin as [E|Hin].
    - injection E as -> -> ->. rewrite Nat.eqb_refl, rowsum_other; [ring|].
      apply Forall_forall. intros tr Htr E. apply Hr'. rewrite <- E.
      exact (in_map (fun tr => fst (fst tr)) _ _ Htr).
    - destruct (Nat.eqb_spec r' r) as [->|_]; [|now apply IH].
      exfalso. apply Hr'. exact (in_map (fun tr => fst (fst tr)) _ _ Hin).
  Qed.

  Lemma branch_trips_rows n (bs : list branch) : forall k0,
    Forall (fun tr : trip => (n + k0 <= fst (fst tr) < n + k0 + length bs)%nat) (branch_trips n k0 bs).
  Proof.
    induction bs as [|b bs IH]; intros k0; simpl; constructor; [|constructor; [|constructor]]; simpl; try lia.
    eapply Forall_impl; [|apply IH]. simpl. intros; lia.
  Qed.

  Lemma from_to_rows (ns : list node) n (bs : list branch) : ends_in_range ns bs -> forall k0,
    Forall (fun tr : trip => (0 <= fst (fst tr) < length ns)%nat) (from_trips ns n k0 bs) /\
    Forall (fun tr : trip => (0 <= fst (fst tr) < length ns)%nat) (to_trips ns n k0 bs).
  Proof.
    induction bs as [|b bs IH]; intros H k0; simpl; [split; constructor|].
    destruct (H b (or_introl eq_refl)) as [Hf Ht].
    destruct (IH (fun b' Hb => H b' (or_intror Hb)) (S k0)) as [IF IT].
    split; [destruct (is_slack ns (b_fn b))|destruct (is_slack ns (b_tn b))]; simpl; auto;
      constructor; auto; simpl; lia.
  Qed.

  Lemma pc_trips_rows (ns : list node) n (bs : list branch) :
    Forall (fun tr : trip => (n <= fst (fst tr) < n + length bs)%nat) (pc_trips ns n bs).
  Proof.
    unfold pc_trips. apply Forall_forall. intros tr H. apply in_map_iff in H.
    destruct H as [[kb c] [<- H]]. simpl. apply in_combine_l in H.
    apply positions_lt in H. simpl in H. lia.
  Qed.

  Lemma slack_trips_rows (ns : list node) :
    Forall (fun tr : trip => (0 <= fst (fst tr) < length ns)%nat) (slack_trips ns).
  Proof.
    apply Forall_forall. intros tr H. apply in_map_iff in H. destruct H as [s [<- H]].
    apply positions_lt in H. simpl in *. lia.
  Qed.

  Lemma sfrom_sto_rows row s n (bs : list branch) : forall k0,
    Forall (fun tr : trip => (row <= fst (fst tr) < S row)%nat) (sfrom_row row s n k0 bs) /\
    Forall (fun tr : trip => (row <= fst (fst tr) < S row)%nat) (sto_row row s n k0 bs).
  Proof.
    induction bs as [|b bs IH]; intros k0; simpl; [split; constructor|].
    destruct (IH (S k0)) as [IF IT].
    split; [destruct (Nat.eqb (b_fn b) s)|destruct (Nat.eqb (b_tn b) s)]; simpl; auto.
  Qed.

  Lemma slackmass_rows (ns : list node) base n (bs : list branch) sl : forall j0,
    Forall (fun tr : trip => (base + j0 <= fst (fst tr) < base + j0 + length sl)%nat)
           (slackmass_trips ns base j0 n sl bs).
  Proof.
    induction sl as [|s sl IH]; intros j0; simpl; [constructor|].
    destruct (sfrom_sto_rows (base + j0) s n bs O) as [F T].
    apply Forall_app. split; [|apply Forall_app; split; [|constructor; [simpl; lia|]]].
    - eapply Forall_impl; [|exact F]. simpl. intros; lia.
    - eapply Forall_impl; [|exact T]. simpl. intros; lia.
    - eapply Forall_impl; [|apply IH]. simpl. intros; lia.
  Qed.

  Lemma branch_trips_rowsum n x (bs : list branch) : forall k0 k b,
    nth_error bs k = Some b ->
    rowsum (branch_trips n k0 bs) (n + k0 + k)%nat x =
    b_dm b * x (n + k0 + k)%nat + b_dp b * x (b_fn b) + b_dp1 b * x (b_tn b).
  Proof.
    induction bs as [|b0 bs IH]; intros k0 k b H; [destruct k; discriminate|].
    cbn [Model.branch_trips rowsum fst snd]. destruct k as [|k]; simpl in H.
    - injection H as ->. rewrite Nat.add_0_r, Nat.eqb_refl.
      rewrite (rowsum_outside (branch_trips_rows n bs (S k0))) by lia. ring.
    - destruct (Nat.eqb_spec (n + k0) (n + k0 + S k)); [lia|].
      replace (n + k0 + S k)%nat with (n + S k0 + k)%nat by lia. apply IH. exact H.
  Qed.

  (* one entry of from_trips / to_trips: present only if its row is a non-slack node *)
  Lemma rowsum_node_entry (ns : list node) c col v r x :
    rowsum (if is_slack ns c then [] else [(c, col, v)]) r x =
    if is_slack ns r then 0 else if Nat.eqb c r then v * x col else 0.
  Proof.
    destruct (Nat.eqb_spec c r) as [->|E].
    - destruct (is_slack ns r); simpl; [|rewrite Nat.eqb_refl; ring]; reflexivity.
    - destruct (is_slack ns c), (is_slack ns r); simpl; rewrite ?(proj2 (Nat.eqb_neq c r) E); reflexivity.
  Qed.

  Lemma from_to_rowsum (ns : list node) n x i (bs : list branch) : forall k0,
    rowsum (from_trips ns n k0 bs) i x + rowsum (to_trips ns n k0 bs) i x =
    if is_slack ns i then 0
    else nodesum (fun k b => b_dmn b * x (n + k)%nat) (fun k b => b_dmn b * x (n + k)%nat) i k0 bs.
  Proof.
    induction bs as [|b bs IH]; intros k0; simpl.
    - destruct (is_slack ns i); ring.
    - rewrite !rowsum_app, !rowsum_node_entry. specialize (IH (S k0)).
      destruct (is_slack ns i).
      + etransitivity; [|exact IH]. ring.
      + rewrite <- IH. destruct (Nat.eqb (b_fn b) i); ring.
  Qed.

  Lemma slack_trips_rowsum (ns : list node) x r :
    rowsum (slack_trips ns) r x = if is_slack ns r then 1 * x r else 0.
  Proof.
    unfold Model.slack_trips. destruct (is_slack ns r) eqn:E.
    - apply rowsum_unique.
      + rewrite map_map. simpl. rewrite map_id. apply positions_NoDup.
      + apply in_map_iff. exists r. split; [reflexivity|]. now apply slack_nodes_spec.
    - apply rowsum_other. apply Forall_forall. intros tr H. apply in_map_iff in H.
      destruct H as [s [<- H]]. simpl. intros ->. apply slack_nodes_spec in H. congruence.
  Qed.

  Lemma pc_trips_NoDup (ns : list node) n (bs : list branch) :
    NoDup (map (fun tr : trip => fst (fst tr)) (pc_trips ns n bs)).
  Proof.
    unfold Model.pc_trips. rewrite map_map. simpl. rewrite <- (map_map fst (Nat.add n)).
    apply NoDup_map_inj; [apply combine_NoDup_fst, positions_NoDup|]. intros; lia.
  Qed.

  Lemma pc_trips_notpc (ns : list node) n (bs : list branch) x k b :
    nth_error bs k = Some b -> b_pc b = false ->
    rowsum (pc_trips ns n bs) (n + k)%nat x = 0.
  Proof.
    intros Hb Hp. apply rowsum_other. unfold Model.pc_trips. apply Forall_forall.
    intros tr H. apply in_map_iff in H. destruct H as [[kb c] [<- H]]. simpl.
    apply in_combine_l in H. apply positions_spec in H. destruct H as [j [b' [E [H1 H2]]]].
    simpl in E. subst j. intros E. assert (kb = k) by lia. subst. congruence.
  Qed.

  Lemma rowsum_guarded (c : bool) row col v x :
    rowsum (if c then [(row, col, v)] else []) row x = if c then v * x col else 0.
  Proof. destruct c; simpl; [rewrite Nat.eqb_refl; ring|reflexivity]. Qed.

  Lemma sfrom_sto_rowsum row s n x (bs : list branch) : forall k0,
    rowsum (sfrom_row row s n k0 bs) row x + rowsum (sto_row row s n k0 bs) row x =
    nodesum (fun k b => b_dmn b * x (n + k)%nat) (fun k b => b_dmn b * x (n + k)%nat) s k0 bs.
  Proof.
    induction bs as [|b bs IH]; intros k0; simpl; [ring|].
    rewrite !rowsum_app, !rowsum_guarded, <- IH. destruct (Nat.eqb (b_fn b) s); ring.
  Qed.

  Lemma slackmass_rowsum (ns : list node) base n x (bs : list branch) sl : forall j0 j s,
    nth_error sl j = Some s ->
    rowsum (slackmass_trips ns base j0 n sl bs) (base + j0 + j)%nat x =
    nodesum (fun k b => b_dmn b * x (n + k)%nat) (fun k b => b_dmn b * x (n + k)%nat) s O bs
    + dmsl_of ns s * x (base + j0 + j)%nat.
  Proof.
    induction sl as [|s0 sl IH]; intros j0 j s H; [destruct j; discriminate|].
    cbn [Model.slackmass_trips]. rewrite !rowsum_app. cbn [rowsum fst snd].
    destruct j as [|j]; simpl in H.
    - injection H as ->. rewrite Nat.add_0_r, Nat.eqb_refl.
      rewrite (rowsum_outside (slackmass_rows ns base n bs sl (S j0))) by lia.
      rewrite <- (sfrom_sto_rowsum (base + j0)%nat s n x bs O). ring.
    - rewrite (rowsum_outside (proj1 (sfrom_sto_rows _ _ _ _ _))) by lia.
      rewrite (rowsum_outside (proj2 (sfrom_sto_rows _ _ _ _ _))) by lia.
      destruct (Nat.eqb_spec (base + j0) (base + j0 + S j)); [lia|].
      replace (base + j0 + S j)%nat with (base + S j0 + j)%nat by lia.
      rewrite (IH (S j0) j s H). ring.
  Qed.

  Lemma eps_node_entry (ns : list node) (bs : list branch) i nd :
    nth_error ns i = Some nd ->
    nth i (eps ns bs) 0 = if is_TSlack (n_typ nd) then 0 else - n_load nd + nodesum lvf_ lvt_ i O bs.
  Proof.
    intros H. unfold eps. rewrite app_nth1.
    - apply nth_error_nth. unfold Model.eps_nodes. rewrite mapi_nth_error, H. reflexivity.
    - unfold Model.eps_nodes. rewrite mapi_length. apply nth_error_Some. congruence.
  Qed.

  Lemma eps_branch_entry (ns : list node) (bs : list branch) k b :
    nth_error bs k = Some b ->
    nth (length ns + k) (eps ns bs) 0 = if b_pc b then 0 else b_lvb b.
  Proof.
    intros H. unfold eps. rewrite app_nth2; unfold Model.eps_nodes; rewrite mapi_length; [|lia].
    replace (length ns + k - length ns)%nat with k by lia.
    rewrite app_nth1.
    - apply nth_error_nth. unfold Model.eps_branches. rewrite nth_error_map, H. reflexivity.
    - unfold Model.eps_branches. rewrite map_length. apply nth_error_Some. congruence.
  Qed.

  Lemma eps_slack_entry (ns : list node) (bs : list branch) j s :
    nth_error (slack_nodes ns) j = Some s ->
    nth (length ns + length bs + j) (eps ns bs) 0 =
    - load_of ns s + nodesum lvf_ lvt_ s O bs - msl_of ns s.
  Proof.
    intros H. unfold eps. rewrite app_nth2; unfold Model.eps_nodes; rewrite mapi_length; [|lia].
    rewrite app_nth2; unfold Model.eps_branches; rewrite map_length; [|lia].
    replace (length ns + length bs + j - length ns - length bs)%nat with j by lia.
    apply nth_error_nth. unfold Model.eps_slack. rewrite nth_error_map, H. reflexivity.
  Qed.

  Lemma rowsum_trips (ns : list node) (bs : list branch) r x :
    rowsum (trips ns bs) r x =
    rowsum (branch_trips (length ns) O bs) r x
    + (rowsum (from_trips ns (length ns) O bs) r x + (rowsum (to_trips ns (length ns) O bs) r x
    + (rowsum (pc_trips ns (length ns) bs) r x + (rowsum (slack_trips ns) r x
    + rowsum (slackmass_trips ns (length ns + length bs) O (length ns) (slack_nodes ns) bs) r x)))).
  Proof. unfold Model.trips. now rewrite !rowsum_app. Qed.

  (* row of node i: the identity entry if i is a slack node; otherwise +dm_node at the branches into i, -dm_node
     at the branches out of i (parallel branches, self loops included), nothing else *)
  Lemma node_row (ns : list node) (bs : list branch) x i :
    (i < length ns)%nat ->
    rowsum (trips ns bs) i x =
    if is_slack ns i then 1 * x i
    else nodesum (fun k b => b_dmn b * x (length ns + k)%nat) (fun k b => b_dmn b * x (length ns + k)%nat) i O bs.
  Proof.
    intros Hi. rewrite rowsum_trips.
    rewrite (rowsum_outside (branch_trips_rows _ _ _)) by lia.
    rewrite (rowsum_outside (pc_trips_rows _ _ _)) by lia.
    rewrite (rowsum_outside (slackmass_rows _ _ _ _ _ _)) by lia.
    rewrite slack_trips_rowsum.
    transitivity (rowsum (from_trips ns (length ns) O bs) i x + rowsum (to_trips ns (length ns) O bs) i x
                  + (if is_slack ns i then 1 * x i else 0)); [ring|].
    rewrite from_to_rowsum. destruct (is_slack ns i); ring.
  Qed.

  (* the momentum row of branch k: its three Jacobian entries plus the PC entries of that row *)
  Lemma branch_row (ns : list node) (bs : list branch) x k b :
    ends_in_range ns bs -> nth_error bs k = Some b ->
    rowsum (trips ns bs) (length ns + k)%nat x =
      b_dm b * x (length ns + k)%nat + b_dp b * x (b_fn b) + b_dp1 b * x (b_tn b)
      + rowsum (pc_trips ns (length ns) bs) (length ns + k)%nat x.
  Proof.
    intros Hr Hb.
    assert (Hk : (k < length bs)%nat) by (apply nth_error_Some; congruence).
    rewrite rowsum_trips.
    pose proof (branch_trips_rowsum (length ns) x bs O k b Hb) as B.
    rewrite Nat.add_0_r in B. rewrite B.
    rewrite (rowsum_outside (proj1 (from_to_rows _ _ _ Hr _))) by lia.
    rewrite (rowsum_outside (proj2 (from_to_rows _ _ _ Hr _))) by lia.
    rewrite (rowsum_outside (slack_trips_rows _)) by lia.
    rewrite (rowsum_outside (slackmass_rows _ _ _ _ _ _)) by lia.
    ring.
  Qed.

  (* the slack-mass row of the j-th slack node s: the node row s would have had, plus the slack-mass entry *)
  Lemma slack_row (ns : list node) (bs : list branch) x j s :
    ends_in_range ns bs -> nth_error (slack_nodes ns) j = Some s ->
    rowsum (trips ns bs) (length ns + length bs + j)%nat x =
      nodesum (fun k b => b_dmn b * x (length ns + k)%nat) (fun k b => b_dmn b * x (length ns + k)%nat) s O bs
      + dmsl_of ns s * x (length ns + length bs + j)%nat.
  Proof.
    intros Hr Hj. rewrite rowsum_trips.
    rewrite (rowsum_outside (branch_trips_rows _ _ _)) by lia.
    rewrite (rowsum_outside (proj1 (from_to_rows _ _ _ Hr _))) by lia.
    rewrite (rowsum_outside (proj2 (from_to_rows _ _ _ Hr _))) by lia.
    rewrite (rowsum_outside (pc_trips_rows _ _ _)) by lia.
    rewrite (rowsum_outside (slack_trips_rows _)) by lia.
    pose proof (slackmass_rowsum ns (length ns + length bs) (length ns) x bs (slack_nodes ns) O j s Hj) as S.
    rewrite Nat.add_0_r in S. rewrite S. ring.
  Qed.

  Lemma solves_node (ns : list node) (bs : list branch) x i nd :
    solves ns bs x -> nth_error ns i = Some nd ->
    if is_TSlack (n_typ nd) then x i = 0
    else nodesum (fun k b => b_dmn b * x (length ns + k)%nat) (fun k b => b_dmn b * x (length ns + k)%nat) i O bs
         = - n_load nd + nodesum lvf_ lvt_ i O bs.
  Proof.
    intros Hs Hn.
    assert (Hi : (i < length ns)%nat) by (apply nth_error_Some; congruence).
    assert (Hd : (i < dim ns bs)%nat) by (unfold dim; lia).
    apply Hs in Hd. rewrite (node_row ns bs x i Hi), (eps_node_entry ns bs i nd Hn) in Hd.
    unfold is_slack, typ_of in Hd. rewrite Hn in Hd.
    destruct (is_TSlack (n_typ nd)); [rewrite <- Hd; ring|exact Hd].
  Qed.

  Lemma solves_branch (ns : list node) (bs : list branch) x k b :
    solves ns bs x -> ends_in_range ns bs -> nth_error bs k = Some b ->
    b_dm b * x (length ns + k)%nat + b_dp b * x (b_fn b) + b_dp1 b * x (b_tn b)
    + rowsum (pc_trips ns (length ns) bs) (length ns + k)%nat x = if b_pc b then 0 else b_lvb b.
  Proof.
    intros Hs Hr Hb.
    assert (Hk : (k < length bs)%nat) by (apply nth_error_Some; congruence).
    assert (Hd : (length ns + k < dim ns bs)%nat) by (unfold dim; lia).
    apply Hs in Hd. rewrite (branch_row ns bs x k b Hr Hb), (eps_branch_entry ns bs k b Hb) in Hd. exact Hd.
  Qed.

  Lemma solves_slack (ns : list node) (bs : list branch) x j s :
    solves ns bs x -> ends_in_range ns bs -> nth_error (slack_nodes ns) j = Some s ->
    nodesum (fun k b => b_dmn b * x (length ns + k)%nat) (fun k b => b_dmn b * x (length ns + k)%nat) s O bs
    + dmsl_of ns s * x (length ns + length bs + j)%nat =
    - load_of ns s + nodesum lvf_ lvt_ s O bs - msl_of ns s.
  Proof.
    intros Hs Hr Hj.
    assert (Hlt : (j < length (slack_nodes ns))%nat) by (apply nth_error_Some; congruence).
    assert (Hd : (length ns + length bs + j < dim ns bs)%nat) by (unfold dim; lia).
    apply Hs in Hd. rewrite (slack_row ns bs x j s Hr Hj), (eps_slack_entry ns bs j s Hj) in Hd. exact Hd.
  Qed.

  (* C03.1a  any solution leaves the pressure of every slack node unchanged *)
  Lemma fixed_slack_lemma (ns : list node) (bs : list branch) x s nd :
    solves ns bs x -> nth_error ns s = Some nd -> is_TSlack (n_typ nd) = true -> x s = 0.
  Proof. intros Hs Hn Ht. pose proof (solves_node ns bs x s nd Hs Hn) as E. now rewrite Ht in E. Qed.

  (* momentum row of an ordinary branch: dm x_b + dp x_from + dp1 x_to = load_vec *)
  Lemma momentum_row_lemma (ns : list node) (bs : list branch) x k b :
    solves ns bs x -> ends_in_range ns bs -> nth_error bs k = Some b -> b_pc b = false ->
    b_dm b * x (length ns + k)%nat + b_dp b * x (b_fn b) + b_dp1 b * x (b_tn b) = b_lvb b.
  Proof.
    intros Hs Hr Hb Hp. pose proof (solves_branch ns bs x k b Hs Hr Hb) as E.
    rewrite Hp, (pc_trips_notpc ns (length ns) bs x k b Hb Hp) in E. rewrite <- E. ring.
  Qed.

  (* C03.3  identity rows (FlowControl with control_active, CirculationPumpMass, HeatConsumer:
     JAC_DERIV_DM = 1, JAC_DERIV_DP = JAC_DERIV_DP1 = 0, LOAD_VEC_BRANCHES = 0) keep the flow *)
  Lemma identity_row_lemma (ns : list node) (bs : list branch) x k b :
    solves ns bs x -> ends_in_range ns bs -> nth_error bs k = Some b ->
    b_pc b = false -> b_dm b = 1 -> b_dp b = 0 -> b_dp1 b = 0 -> b_lvb b = 0 ->
    x (length ns + k)%nat = 0.
  Proof.
    intros Hs Hr Hb Hp H1 H2 H3 H4. pose proof (momentum_row_lemma ns bs x k b Hs Hr Hb Hp) as M.
    rewrite H1, H2, H3, H4 in M. rewrite <- M. ring.
  Qed.

  (* C03.1b  any solution leaves the pressure of every pressure-controlled node unchanged, provided the rows of
     the PC branches carry no other entry (PressureControl.adaption_after_derivatives_hydraulic zeroes
     JAC_DERIV_DM/DP/DP1 of BRANCH_TYPE == PC rows) and there are as many PC branches as PC nodes *)
  Lemma fixed_pc_lemma (ns : list node) (bs : list branch) x c :
    solves ns bs x -> ends_in_range ns bs ->
    length (pc_branches bs) = length (pc_nodes ns) ->
    (forall k b, nth_error bs k = Some b -> b_pc b = true -> b_dm b = 0 /\ b_dp b = 0 /\ b_dp1 b = 0) ->
    In c (pc_nodes ns) -> x c = 0.
  Proof.
    intros Hs Hr Hl Hz Hc.
    destruct (combine_covers (pc_branches bs) (pc_nodes ns) c Hl Hc) as [kb Hin].
    pose proof (in_combine_l _ _ _ _ Hin) as Hkb. apply positions_spec in Hkb.
    destruct Hkb as [j [b [E [Hb Hp]]]]. simpl in E. subst j.
    pose proof (solves_branch ns bs x kb b Hs Hr Hb) as R.
    destruct (Hz kb b Hb Hp) as [Z1 [Z2 Z3]]. rewrite Hp, Z1, Z2, Z3 in R.
    rewrite (rowsum_unique _ _ c 1 x (pc_trips_NoDup ns (length ns) bs)) in R.
    - rewrite <- R. ring.
    - exact (in_map (fun kc => ((length ns + fst kc)%nat, snd kc, 1)) _ _ Hin).
  Qed.

  (* CirculationPumpPressure: JAC_DERIV_DP = 1, JAC_DERIV_DP1 = -1, flow node is a slack node
     (x_to = 0): the Newton correction of the return pressure is load_vec - dm * x_b *)
  Lemma circ_pressure_row_lemma (ns : list node) (bs : list branch) x k b nd :
    solves ns bs x -> ends_in_range ns bs -> nth_error bs k = Some b ->
    b_pc b = false -> b_dp b = 1 -> b_dp1 b = opp one ->
    nth_error ns (b_tn b) = Some nd -> is_TSlack (n_typ nd) = true ->
    x (b_fn b) = b_lvb b - b_dm b * x (length ns + k)%nat.
  Proof.
    intros Hs Hr Hb Hp H1 H2 Hn Ht.
    pose proof (momentum_row_lemma ns bs x k b Hs Hr Hb Hp) as M.
    rewrite H1, H2, (fixed_slack_lemma ns bs x (b_tn b) nd Hs Hn Ht) in M. rewrite <- M. ring.
  Qed.

  (* the line  load_vec = p_diff + PL + const_height - friction  of both hydraulic kernels at a
     fixed point (load_vec = 0): the branch lifts by PL (+ geodetic term - friction loss) *)
  Lemma lift_fixed_point_lemma (pf pt pl h fr : A) :
    (pf - pt) + pl + h - fr = 0 -> pt - pf = pl + h - fr.
  Proof. intros H. transitivity (pl + h - fr - ((pf - pt) + pl + h - fr)); [ring|]. rewrite H. ring. Qed.

  (* Compressor.adaption_before_derivatives_hydraulic: PL = p_from * ratio - p_from (forward flow);
     LC = 0, L = 0 => friction 0; equal heights => h = 0 *)
  Lemma compressor_ratio_lemma (pf pt ratio : A) :
    (pf - pt) + (pf * ratio - pf) + 0 - 0 = 0 -> pt = ratio * pf.
  Proof. intros H. apply lift_fixed_point_lemma in H. transitivity (pt - pf + pf); [ring|]. rewrite H. ring. Qed.

  (* reverse flow: PL = 0, the compressor is a loss-free bypass *)
  Lemma compressor_reverse_lemma (pf pt : A) :
    (pf - pt) + 0 + 0 - 0 = 0 -> pt = pf.
  Proof. intros H. apply lift_fixed_point_lemma in H. transitivity (pt - pf + pf); [ring|]. rewrite H. ring. Qed.

  Lemma nodesum_lin (g h : nat -> A) (a : A) i (bs : list branch) : forall k0,
    nodesum (fun k _ => g k - h k * a) (fun k _ => g k - h k * a) i k0 bs =
    nodesum (fun k _ => g k) (fun k _ => g k) i k0 bs - a * nodesum (fun k _ => h k) (fun k _ => h k) i k0 bs.
  Proof.
    induction bs as [|b bs IH]; intros k0; simpl; [ring|]. rewrite IH.
    destruct (Nat.eqb (b_tn b) i), (Nat.eqb (b_fn b) i); ring.
  Qed.

  Lemma nodesum_ext (gf gt gf' gt' : nat -> branch -> A) i (bs : list branch) : forall k0,
    (forall k b, nth_error bs k = Some b -> gf (k0 + k)%nat b = gf' (k0 + k)%nat b /\ gt (k0 + k)%nat b = gt' (k0 + k)%nat b) ->
    nodesum gf gt i k0 bs = nodesum gf' gt' i k0 bs.
  Proof.
    induction bs as [|b bs IH]; intros k0 H; simpl; auto.
    destruct (H O b eq_refl) as [H1 H2]. rewrite Nat.add_0_r in H1, H2. rewrite H1, H2.
    rewrite (IH (S k0)); auto.
    intros k b' Hk. replace (S k0 + k)%nat with (k0 + S k)%nat by lia. apply H. exact Hk.
  Qed.

  (* with the columns the kernels write, both sides of a node equation are net inflows *)
  Lemma kernel_node_eq (bs : list branch) (m x : nat -> A) n i :
    kernel_cols bs m ->
    nodesum (fun k b => b_dmn b * x (n + k)%nat) (fun k b => b_dmn b * x (n + k)%nat) i O bs
      = inflow (fun k => x (n + k)%nat) i bs
    /\ nodesum lvf_ lvt_ i O bs = inflow m i bs.
  Proof.
    intros Hk. unfold Model.inflow.
    split; apply nodesum_ext; intros k b Hb; destruct (Hk k b Hb) as [E [H1 H2]]; simpl.
    - rewrite E. split; ring.
    - unfold lvf_, lvt_. auto.
  Qed.

  Lemma balance_lemma (ns : list node) (bs : list branch) (m x : nat -> A) (alpha : A) i nd :
    solves ns bs x -> kernel_cols bs m ->
    nth_error ns i = Some nd -> is_TSlack (n_typ nd) = false ->
    inflow (fun k => m k - x (length ns + k)%nat * alpha) i bs - n_load nd =
    (1 - alpha) * (inflow m i bs - n_load nd).
  Proof.
    intros Hs Hk Hn Ht. pose proof (solves_node ns bs x i nd Hs Hn) as E. rewrite Ht in E.
    destruct (kernel_node_eq bs m x (length ns) i Hk) as [K1 K2]. rewrite K1, K2 in E.
    unfold Model.inflow in *. rewrite (nodesum_lin m (fun k => x (length ns + k)%nat) alpha i bs O), E. ring.
  Qed.

  (* 3. slack_balance_after_step: no alpha on the slack-mass update (as in the code).  The full step is written
     m - x * 1, the damped step of balance_lemma at alpha = 1, so that the two meet in global_after_step_lemma. *)
  Lemma slack_balance_lemma (ns : list node) (bs : list branch) (m x : nat -> A) j s :
    solves ns bs x -> kernel_cols bs m -> ends_in_range ns bs ->
    nth_error (slack_nodes ns) j = Some s -> dmsl_of ns s = opp one ->
    msl_of ns s - x (length ns + length bs + j)%nat =
    inflow (fun k => m k - x (length ns + k)%nat * 1) s bs - load_of ns s.
  Proof.
    intros Hs Hk Hr Hj Hd. pose proof (solves_slack ns bs x j s Hs Hr Hj) as E.
    destruct (kernel_node_eq bs m x (length ns) s Hk) as [K1 K2]. rewrite K1, K2, Hd in E.
    unfold Model.inflow in *. rewrite (nodesum_lin m (fun k => x (length ns + k)%nat) 1 s bs O).
    assert (E' : nodesum (fun k _ => x (length ns + k)%nat) (fun k _ => x (length ns + k)%nat) s O bs =
                 - load_of ns s + nodesum (fun k _ => m k) (fun k _ => m k) s O bs - msl_of ns s
                 + x (length ns + length bs + j)%nat) by (rewrite <- E; ring).
    rewrite E'. ring.
  Qed.

  Fixpoint sumfrom (f : nat -> A) (k0 len : nat) : A :=
    match len with O => 0 | S l => f k0 + sumfrom f (S k0) l end.

  Lemma sumfrom_ext f g : forall len k0,
    (forall i, (k0 <= i < k0 + len)%nat -> f i = g i) -> sumfrom f k0 len = sumfrom g k0 len.
  Proof.
    induction len; intros k0 H; simpl; auto. rewrite (H k0) by lia. rewrite (IHlen (S k0)); auto.
    intros; apply H; lia.
  Qed.

  Lemma sumfrom_add f g : forall len k0,
    sumfrom (fun i => f i + g i) k0 len = sumfrom f k0 len + sumfrom g k0 len.
  Proof. induction len; intros; simpl; [ring|]. rewrite IHlen. ring. Qed.

  Lemma sumfrom_zero : forall len k0, sumfrom (fun _ => 0) k0 len = 0.
  Proof. induction len; intros; simpl; [ring|]. rewrite IHlen. ring. Qed.

  Lemma sumfrom_delta_before a v : forall len k0,
    (a < k0)%nat -> sumfrom (fun i => if Nat.eqb a i then v else 0) k0 len = 0.
  Proof.
    induction len; intros k0 H; simpl; [reflexivity|]. rewrite IHlen by lia.
    destruct (Nat.eqb_spec a k0); [lia|ring].
  Qed.

  Lemma sumfrom_delta a v : forall len k0,
    (k0 <= a < k0 + len)%nat -> sumfrom (fun i => if Nat.eqb a i then v else 0) k0 len = v.
  Proof.
    induction len; intros k0 H; simpl; [lia|]. destruct (Nat.eqb_spec a k0) as [->|E].
    - rewrite sumfrom_delta_before by lia. ring.
    - rewrite IHlen by lia. ring.
  Qed.

  (* every branch term enters once with + (to node) and once with - (from node) *)
  Lemma sum_inflow_zero (g : nat -> A) n (bs : list branch) : forall k0,
    (forall b, In b bs -> (b_fn b < n)%nat /\ (b_tn b < n)%nat) ->
    sumfrom (fun i => nodesum (fun k _ => g k) (fun k _ => g k) i k0 bs) O n = 0.
  Proof.
    induction bs as [|b bs IH]; intros k0 H; simpl.
    - apply sumfrom_zero.
    - rewrite sumfrom_add, IH by (intros; apply H; now right).
      destruct (H b (or_introl eq_refl)) as [Hf Ht].
      rewrite (sumfrom_ext _ (fun i => (if Nat.eqb (b_tn b) i then g k0 else 0)
                                       + (if Nat.eqb (b_fn b) i then - g k0 else 0))).
      2:{ intros. destruct (Nat.eqb (b_tn b) i), (Nat.eqb (b_fn b) i); ring. }
      rewrite sumfrom_add, !sumfrom_delta by lia. ring.
  Qed.

  (* summed over the nodes from k0 on: feeds of the slack nodes + loads = net inflows *)
  Lemma feed_load_sum (g feed : nat -> A) (bs : list branch) (l : list node) : forall k0,
    (forall j nd, nth_error l j = Some nd ->
       if is_TSlack (n_typ nd) then feed (k0 + j)%nat = inflow g (k0 + j)%nat bs - n_load nd
       else inflow g (k0 + j)%nat bs - n_load nd = 0) ->
    sumlist (map feed (positions (fun nd => is_TSlack (n_typ nd)) k0 l)) + sumlist (map (@n_load A) l)
    = sumfrom (fun i => inflow g i bs) k0 (length l).
  Proof.
    induction l as [|a l IH]; intros k0 H; simpl; [ring|].
    rewrite <- (IH (S k0)).
    2:{ intros j nd Hj. replace (S k0 + j)%nat with (k0 + S j)%nat by lia. apply H. exact Hj. }
    specialize (H O a eq_refl). rewrite Nat.add_0_r in H.
    destruct (is_TSlack (n_typ a)); simpl.
    - rewrite H. ring.
    - assert (E : inflow g k0 bs = n_load a)
        by (transitivity (inflow g k0 bs - n_load a + n_load a); [ring|rewrite H; ring]).
      rewrite E. ring.
  Qed.

  (* 4. global balance, graph level: if every non-slack node balances and every slack node's
        feed equals its imbalance, the feeds sum to minus the total load *)
  Lemma global_balance_lemma (ns : list node) (bs : list branch) (g : nat -> A) (feed : nat -> A) :
    ends_in_range ns bs ->
    (forall i nd, nth_error ns i = Some nd -> is_TSlack (n_typ nd) = false -> inflow g i bs - n_load nd = 0) ->
    (forall s nd, nth_error ns s = Some nd -> is_TSlack (n_typ nd) = true -> feed s = inflow g s bs - n_load nd) ->
    sumlist (map feed (slack_nodes ns)) = - sumlist (map (@n_load A) ns).
  Proof.
    intros Hr Hn Hsl. unfold slack_nodes.
    set (F := sumlist (map feed (positions (fun nd : node => is_TSlack (n_typ nd)) O ns))).
    set (L := sumlist (map (@n_load A) ns)).
    assert (E : F + L = 0).
    { unfold F, L. rewrite (feed_load_sum g feed bs ns O); [exact (sum_inflow_zero g (length ns) bs O Hr)|].
      intros j nd Hj. simpl. destruct (is_TSlack (n_typ nd)) eqn:Et; auto. }
    transitivity (F + L - L); [ring|rewrite E; ring].
  Qed.

  (* ... and its instance after one full Newton step (alpha = 1) from any iterate *)
  Lemma global_after_step_lemma (ns : list node) (bs : list branch) (m x : nat -> A) :
    solves ns bs x -> kernel_cols bs m -> ends_in_range ns bs ->
    (forall s, In s (slack_nodes ns) -> dmsl_of ns s = opp one) ->
    sumlist (step_msl (length ns + length bs) (map (msl_of ns) (slack_nodes ns)) x)
    = - sumlist (map (@n_load A) ns).
  Proof.
    intros Hs Hk Hr Hd.
    set (g := fun k => m k - x (length ns + k)%nat * 1).
    (* the value written for the j-th slack node, as a function of its node index *)
    set (feed := fun s => inflow g s bs - load_of ns s).
    rewrite <- (global_balance_lemma ns bs g feed Hr).
    - f_equal. unfold Model.step_msl. apply mapi_map_ext. intros j s Hj.
      apply slack_balance_lemma; auto. apply Hd. eapply nth_error_In; eauto.
    - intros i nd En Et. unfold g.
      rewrite (balance_lemma ns bs m x 1 i nd Hs Hk En Et). ring.
    - intros s nd En Et. unfold feed, load_of. now rewrite En.
  Qed.

  Notation group_add := (group_add add).
  Notation sum_by_group := (sum_by_group add).

  Fixpoint fsum (P : Z -> bool) (g : list (Z * A)) : A :=
    match g with [] => 0 | (l, s) :: r => (if P l then s else 0) + fsum P r end.

  Lemma fsum_ext P Q (g : list (Z * A)) : (forall k, In k (map fst g) -> P k = Q k) -> fsum P g = fsum Q g.
  Proof.
    induction g as [|[l s] r IH]; simpl; intros H; [reflexivity|].
    rewrite (H l (or_introl eq_refl)), IH by (intros; apply H; now right). reflexivity.
  Qed.

  Lemma fsum_none P g : (forall k, In k (map fst g) -> P k = false) -> fsum P g = 0.
  Proof.
    induction g as [|[l s] r IH]; simpl; intros H; [reflexivity|].
    rewrite (H l (or_introl eq_refl)), IH by (intros; apply H; now right). ring.
  Qed.

  Lemma glookup_fsum l (g : list (Z * A)) : glookup zero add l g = fsum (Z.eqb l) g.
  Proof. induction g as [|[l' s] r IH]; simpl; auto. now rewrite IH. Qed.

  (* the three facts about sum_by_group: it preserves the sum over any set of labels ... *)
  Lemma group_add_fsum P l v g : fsum P (group_add l v g) = (if P l then v else 0) + fsum P g.
  Proof.
    induction g as [|[l' v'] r IH]; simpl; [ring|].
    destruct (Z.eqb_spec l l') as [->|Hne]; simpl.
    - destruct (P l'); ring.
    - destruct (Z.ltb l l'); simpl; [ring|]. rewrite IH. ring.
  Qed.

  Lemma sbg_fsum P kv : fsum P (sum_by_group kv) = fsum P kv.
  Proof.
    unfold Model.sum_by_group.
    assert (G : forall acc, fsum P (fold_left (fun g lv => group_add (fst lv) (snd lv) g) kv acc) = fsum P acc + fsum P kv).
    { induction kv as [|[l v] kv IH]; intros acc; simpl; [ring|]. rewrite IH, group_add_fsum. ring. }
    rewrite G. simpl. ring.
  Qed.

  (* ... and the set of labels ... *)
  Lemma group_add_keys k l v g : In k (map fst (group_add l v g)) <-> In k (l :: map fst g).
  Proof.
    induction g as [|[l' v'] r IH]; simpl; [reflexivity|].
    destruct (Z.eqb_spec l l') as [->|_]; simpl.
    - split; [intros [H|H]|intros [H|[H|H]]]; auto.
    - destruct (Z.ltb l l'); simpl; [reflexivity|]. rewrite IH. simpl.
      split; intros [H|[H|H]]; auto.
  Qed.

  Lemma sbg_keys k kv : In k (map fst (sum_by_group kv)) <-> In k (map fst kv).
  Proof.
    unfold Model.sum_by_group.
    assert (G : forall acc, In k (map fst (fold_left (fun g lv => group_add (fst lv) (snd lv) g) kv acc)) <->
                            In k (map fst acc) \/ In k (map fst kv)).
    { induction kv as [|[l v] kv IH]; intros acc; simpl.
      - split; [auto|intros [H|[]]; exact H].
      - rewrite IH, group_add_keys. simpl. split; [intros [[H|H]|H]|intros [H|[H|H]]]; auto. }
    rewrite G. simpl. split; [intros [[]|H]; exact H|auto].
  Qed.

  (* ... and its labels are strictly increasing, hence distinct *)
  Fixpoint increasing (ks : list Z) : Prop :=
    match ks with [] => True | k :: r => (forall k', In k' r -> (k < k')%Z) /\ increasing r end.

  Lemma group_add_increasing l v g : increasing (map fst g) -> increasing (map fst (group_add l v g)).
  Proof.
    induction g as [|[l' v'] r IH]; simpl; intros H; [split; [intros ? []|exact I]|].
    destruct H as [H1 H2]. destruct (Z.eqb_spec l l') as [->|Hne]; [simpl; auto|].
    destruct (Z.ltb_spec l l') as [Hlt|Hge]; simpl.
    - split; [|auto]. intros k' [<-|Hk]; [exact Hlt|]. specialize (H1 k' Hk). lia.
    - split; [|auto]. intros k' Hk. apply group_add_keys in Hk. destruct Hk as [<-|Hk]; [lia|auto].
  Qed.

  Lemma sbg_increasing kv : increasing (map fst (sum_by_group kv)).
  Proof.
    unfold Model.sum_by_group.
    assert (G : forall acc, increasing (map fst acc) ->
                            increasing (map fst (fold_left (fun g lv => group_add (fst lv) (snd lv) g) kv acc))).
    { induction kv as [|[l v] kv IH]; intros acc H; simpl; auto. apply IH, group_add_increasing, H. }
    apply G. exact I.
  Qed.

  Lemma increasing_NoDup ks : increasing ks -> NoDup ks.
  Proof.
    induction ks as [|k r IH]; intros H; [constructor|]. destruct H as [H1 H2].
    constructor; auto. intros Hin. specialize (H1 k Hin). lia.
  Qed.

  (* labels that [pos] keeps apart land on distinct positions *)
  Lemma sbg_positions_NoDup (pos : Z -> nat) kv :
    (forall k k', In k (map fst kv) -> In k' (map fst kv) -> pos k = pos k' -> k = k') ->
    NoDup (map (fun ls : Z * A => pos (fst ls)) (sum_by_group kv)).
  Proof.
    intros H. rewrite <- (map_map fst pos). apply NoDup_map_inj; [apply increasing_NoDup, sbg_increasing|].
    intros k k' Hk Hk'. apply H; now apply sbg_keys.
  Qed.

  Lemma set_nth_length i v (l : list A) : length (set_nth i v l) = length l.
  Proof. revert i; induction l; destruct i; simpl; auto. Qed.

  Lemma nth_set_nth_same i v (l : list A) : (i < length l)%nat -> nth i (set_nth i v l) 0 = v.
  Proof. revert i; induction l; destruct i; simpl; intros; try lia; auto. apply IHl. lia. Qed.

  Lemma nth_set_nth_other i j v (l : list A) : i <> j -> nth j (set_nth i v l) 0 = nth j l 0.
  Proof. revert i j; induction l; destruct i, j; simpl; intros; try congruence; auto. Qed.

  Lemma scatter_length ws : forall l : list A, length (scatter ws l) = length l.
  Proof. unfold scatter. induction ws as [|w ws IH]; intros l; simpl; auto. rewrite IH. apply set_nth_length. Qed.

  Lemma scatter_notin i ws : forall l : list A,
    (forall w, In w ws -> fst w <> i) -> nth i (scatter ws l) 0 = nth i l 0.
  Proof.
    unfold scatter. induction ws as [|w ws IH]; intros l H; simpl; auto.
    rewrite IH by (intros; apply H; now right). apply nth_set_nth_other. apply H. now left.
  Qed.

  (* a table g whose labels sit on distinct positions, written through [scatter]: position i receives the value
     computed from the one entry of g on i, if there is one; that entry is also all that fsum finds on i *)
  Lemma scatter_table_nth (pos : Z -> nat) (W : Z * A -> A) i g : forall l : list A,
    NoDup (map (fun ls : Z * A => pos (fst ls)) g) -> (i < length l)%nat ->
    nth i (scatter (map (fun ls => (pos (fst ls), W ls)) g) l) 0 =
    match find (fun ls => Nat.eqb (pos (fst ls)) i) g with Some ls => W ls | None => nth i l 0 end.
  Proof.
    induction g as [|ls g IH]; intros l Hnd Hi; [reflexivity|].
    inversion Hnd as [|? ? Hls Hnd']; subst.
    change (scatter (map _ (ls :: g)) l)
      with (scatter (map (fun ls => (pos (fst ls), W ls)) g) (set_nth (pos (fst ls)) (W ls) l)).
    simpl find. destruct (Nat.eqb_spec (pos (fst ls)) i) as [E|E].
    - rewrite scatter_notin.
      + rewrite E. apply nth_set_nth_same. exact Hi.
      + intros w Hw Ew. apply Hls. apply in_map_iff in Hw. destruct Hw as [ls' [<- Hw]].
        simpl in Ew. rewrite E, <- Ew. exact (in_map (fun ls => pos (fst ls)) _ _ Hw).
    - rewrite IH by (rewrite ?set_nth_length; assumption).
      destruct (find _ g); [reflexivity|]. apply nth_set_nth_other. exact E.
  Qed.

  Lemma fsum_table (pos : Z -> nat) i g :
    NoDup (map (fun ls : Z * A => pos (fst ls)) g) ->
    fsum (fun k => Nat.eqb (pos k) i) g =
    match find (fun ls => Nat.eqb (pos (fst ls)) i) g with Some ls => snd ls | None => 0 end.
  Proof.
    induction g as [|[k s] g IH]; simpl; intros Hnd; [reflexivity|].
    inversion Hnd as [|? ? Hk Hnd']; subst. destruct (Nat.eqb_spec (pos k) i) as [E|E]; simpl.
    - rewrite fsum_none; [ring|]. intros k' Hk'. apply Nat.eqb_neq. intros E'. apply Hk.
      apply in_map_iff in Hk'. destruct Hk' as [ls [<- Hls]].
      rewrite E, <- E'. exact (in_map (fun ls => pos (fst ls)) _ _ Hls).
    - rewrite IH by assumption. destruct (find _ g); ring.
  Qed.

  Lemma filter_fsum {X} (key : X -> Z) (val : X -> A) (P : Z -> bool) (rows : list X) :
    sumlist (map val (filter (fun r => P (key r)) rows)) = fsum P (map (fun r => (key r, val r)) rows).
  Proof.
    induction rows as [|r rows IH]; simpl; auto.
    destruct (P (key r)); simpl; rewrite IH; ring.
  Qed.

  Lemma load_aggregation_lemma (sign : A) (pos : Z -> nat) (rows : list (@cf_row A)) (loads : list A) (i : nat) :
    (forall r r', In r rows -> In r' rows -> pos (cf_junction r) = pos (cf_junction r') -> cf_junction r = cf_junction r') ->
    (i < length loads)%nat ->
    nth i (constflow_entries zero one add mul sign pos rows loads) 0 =
    nth i loads 0 + sumlist (map (cf_value zero one mul sign) (filter (fun r => Nat.eqb (pos (cf_junction r)) i) rows)).
  Proof.
    intros Hinj Hi. unfold Model.constflow_entries.
    rewrite (filter_fsum (@cf_junction A) (cf_value zero one mul sign) (fun l => Nat.eqb (pos l) i)).
    set (kv := map (fun r => (cf_junction r, cf_value zero one mul sign r)) rows).
    assert (ND : NoDup (map (fun ls : Z * A => pos (fst ls)) (sum_by_group kv))).
    { apply sbg_positions_NoDup. unfold kv. rewrite map_map. simpl. intros k k' Hk Hk'.
      apply in_map_iff in Hk, Hk'. destruct Hk as [r [<- Hr]], Hk' as [r' [<- Hr']]. now apply Hinj. }
    rewrite <- (sbg_fsum _ kv), (fsum_table pos i _ ND).
    rewrite (scatter_table_nth pos (fun ls => nth (pos (fst ls)) loads 0 + snd ls) i _ loads ND Hi).
    destruct (find _ (sum_by_group kv)) as [ls|] eqn:F; [|ring].
    apply find_some in F. destruct F as [_ F]. apply Nat.eqb_eq in F. now rewrite F.
  Qed.

  Lemma sum_const (v : A) {X} (l : list X) :
    sumlist (map (fun _ => v) l) = v * sumlist (map (fun _ => 1) l).
  Proof. induction l; simpl; [ring|]. rewrite IHl. ring. Qed.

  (* ConstFlow.extract_results vs the LOAD column: at a node all of whose rows are supplied, what the pit aggregated
     (cf_value, theorem load_aggregation) is sign * the sum of the reported values *)
  Lemma constflow_reported_lemma (sign : A) (pos : Z -> nat) (rows : list (@cf_row A)) (i : nat) :
    sumlist (map (cf_value zero one mul sign) (filter (fun r => Nat.eqb (pos (cf_junction r)) i) rows)) =
    sign * sumlist (map (reported_or_zero zero mul) (filter (fun r => Nat.eqb (pos (cf_junction r)) i) rows)).
  Proof.
    induction rows as [|r rows IH]; simpl; [ring|].
    destruct (Nat.eqb (pos (cf_junction r)) i); simpl; auto. rewrite IH.
    unfold Model.cf_value, Model.reported_or_zero. destruct (cf_in_service r); ring.
  Qed.

  (* set_fixed_node_entries writes v = (p_old * cnt + s) / (k + cnt); whenever the division is the
     inverse of the multiplication at (k + cnt), v is the mean of everything applied so far *)
  Lemma mean_law_lemma (div : A -> A -> A) (p s c k v : A) :
    (forall a b, b = k + c -> div a b * b = a) ->
    v = div (p * c + s) (k + c) -> v * (k + c) = p * c + s.
  Proof. intros Hd ->. apply Hd. reflexivity. Qed.

  (* first call on a junction: the code's expression at cnt = 0, kept as the code evaluates it (p * 0 + s over k + 0;
     the old pressure p drops out): v * k = s, i.e. v is the mean of the k values *)
  Lemma mean_first_lemma (div : A -> A -> A) (p s k v : A) :
    (forall a b, b = k + 0 -> div a b * b = a) ->
    v = div (p * 0 + s) (k + 0) -> v * k = s.
  Proof.
    intros Hd Hv. pose proof (mean_law_lemma div p s 0 k v Hd Hv) as H.
    transitivity (v * (k + 0)); [ring|]. rewrite H. ring.
  Qed.

  (* two calls in a row (ext grids, then circulation pumps on the same junction; the second call finds
     cnt = 0 + k1 and p = v1): still the mean *)
  Lemma mean_two_calls_lemma (div : A -> A -> A) (p s1 k1 v1 s2 k2 v2 : A) :
    (forall a b, b = k1 + 0 -> div a b * b = a) ->
    (forall a b, b = k2 + (0 + k1) -> div a b * b = a) ->
    v1 = div (p * 0 + s1) (k1 + 0) ->
    v2 = div (v1 * (0 + k1) + s2) (k2 + (0 + k1)) ->
    v2 * (k1 + k2) = s1 + s2.
  Proof.
    intros H1 H2 E1 E2.
    pose proof (mean_first_lemma div p s1 k1 v1 H1 E1) as F1.
    pose proof (mean_law_lemma div v1 s2 (0 + k1) k2 v2 H2 E2) as F2.
    transitivity (v2 * (k2 + (0 + k1))); [ring|]. rewrite F2.
    transitivity (v1 * k1 + s2); [ring|]. rewrite F1. ring.
  Qed.

  Lemma fx_values_keys (rows : list (@fx_row A)) k :
    In k (map fst (fx_values rows)) <-> exists r, In r rows /\ fx_valid r = true /\ fx_junction r = k.
  Proof.
    unfold Model.fx_values. rewrite map_map, in_map_iff. simpl. split.
    - intros [r [E H]]. apply filter_In in H. destruct H. exists r. auto.
    - intros [r [H [Hv E]]]. exists r. split; [exact E|]. apply filter_In. auto.
  Qed.

  Lemma fx_ones_keys (rows : list (@fx_row A)) : map fst (fx_ones one rows) = map fst (fx_values rows).
  Proof. unfold Model.fx_values, Model.fx_ones. now rewrite !map_map. Qed.

  Lemma fixed_entries_grouped_lemma (div : A -> A -> A) (pos : Z -> nat) (rows : list (@fx_row A)) (st : @fx_state A) (i : nat) :
    let S := fsum (fun l => Nat.eqb (pos l) i) (fx_values rows) in
    let N := fsum (fun l => Nat.eqb (pos l) i) (fx_ones one rows) in
    let st' := fixed_entries2 zero one add mul div pos rows st in
    (forall r r', In r rows -> In r' rows -> fx_valid r = true -> fx_valid r' = true ->
                  pos (fx_junction r) = pos (fx_junction r') -> fx_junction r = fx_junction r') ->
    (i < length (fs_p st))%nat -> (i < length (fs_cnt st))%nat ->
    ((exists r, In r rows /\ fx_valid r = true /\ pos (fx_junction r) = i) ->
     forall a, div a (N + nth i (fs_cnt st) 0) * (N + nth i (fs_cnt st) 0) = a) ->
    nth i (fs_p st') 0 * (N + nth i (fs_cnt st) 0) = nth i (fs_p st) 0 * nth i (fs_cnt st) 0 + S
    /\ nth i (fs_cnt st') 0 = nth i (fs_cnt st) 0 + N.
  Proof.
    (* both writes go through [scatter] over the grouped table gv, whose labels sit on distinct positions: position i
       receives the value computed from the one entry (l0, s0) of gv on i.  The valid rows on i are then exactly those
       labelled l0, so s0 = S and the grouped count of l0 is N; with no entry on i nothing is written and S = N = 0. *)
    intros S N st' Hinj Hp Hc Hd. subst st'. unfold Model.fixed_entries2. cbn [fs_p fs_cnt].
    set (gv := sum_by_group (fx_values rows)). set (gn := sum_by_group (fx_ones one rows)).
    assert (ND : NoDup (map (fun ls : Z * A => pos (fst ls)) gv)).
    { apply sbg_positions_NoDup. intros k k' Hk Hk'. apply fx_values_keys in Hk, Hk'.
      destruct Hk as [r [Hr [Hv <-]]], Hk' as [r' [Hr' [Hv' <-]]]. now apply Hinj. }
    assert (SV : S = match find (fun ls => Nat.eqb (pos (fst ls)) i) gv with Some ls => snd ls | None => 0 end).
    { unfold S. rewrite <- (sbg_fsum _ (fx_values rows)). apply fsum_table, ND. }
    cbv zeta.
    rewrite (scatter_table_nth pos (fun ls => div (nth (pos (fst ls)) (fs_p st) 0 * nth (pos (fst ls)) (fs_cnt st) 0 + snd ls)
                                               (glookup zero add (fst ls) gn + nth (pos (fst ls)) (fs_cnt st) 0))
               i gv (fs_p st) ND Hp).
    rewrite (scatter_table_nth pos (fun ls => nth (pos (fst ls)) (fs_cnt st) 0 + glookup zero add (fst ls) gn)
               i gv (fs_cnt st) ND Hc).
    rewrite SV. destruct (find _ gv) as [[l0 s0]|] eqn:F.
    - (* r0: a valid row labelled l0 *)
      apply find_some in F. destruct F as [Hin Hpos]. apply Nat.eqb_eq in Hpos. cbn [fst snd] in *.
      destruct (proj1 (fx_values_keys rows l0) (proj1 (sbg_keys l0 _) (in_map fst _ _ Hin))) as [r0 [Hr0 [Hv0 Hj0]]].
      assert (NE : glookup zero add l0 gn = N).
      { rewrite glookup_fsum. unfold gn. rewrite sbg_fsum. apply fsum_ext.
        intros k Hk. rewrite fx_ones_keys in Hk. apply fx_values_keys in Hk. destruct Hk as [r [Hr [Hv <-]]].
        destruct (Z.eqb_spec l0 (fx_junction r)) as [E|E].
        - rewrite <- E, Hpos. symmetry. apply Nat.eqb_refl.
        - symmetry. apply Nat.eqb_neq. intros E'. apply E. rewrite <- Hj0. apply Hinj; auto. now rewrite Hj0, Hpos. }
      rewrite Hpos, NE. split; [|reflexivity]. apply Hd. exists r0. now rewrite Hj0.
    - assert (N0 : N = 0).
      { apply fsum_none. intros k Hk. apply Nat.eqb_neq. intros E.
        rewrite fx_ones_keys in Hk. apply sbg_keys in Hk. fold gv in Hk.
        apply in_map_iff in Hk. destruct Hk as [ls [<- Hls]].
        apply (find_none _ _ F) in Hls. apply Nat.eqb_neq in Hls. contradiction. }
      rewrite N0. split; ring.
  Qed.

End Proofs.
