(* C01 - mass conservation: the property theorems, each a short consequence of the lemmas of Proofs.v
   (theorem 8: of C06's placement lemmas).
   All statements are over an arbitrary commutative ring (A, zero, one, add, mul, sub, opp) and
   hold for any number of nodes and branches, parallel branches and self loops included.
   The model (Model.v) is tied to /repo by exact correspondences evaluated inside Coq on every run. *)
From Coq Require Import ZArith QArith List Lia Field.
From PP Require Import C01.Model C01.Proofs C01.Corr C06.ModelExtract C06.ProofsExtract.
Import ListNotations.
Close Scope Q_scope.
Open Scope nat_scope.

(* 1. the Jacobian row and right-hand side of every non-slack node are exactly the nodal balance *)
Theorem node_row_shape :
  forall (A : Type) (zero one : A) (add mul sub : A -> A -> A) (opp : A -> A),
  ring_theory zero one add mul sub opp eq ->
  forall (ns : list (@node A)) (bs : list (@branch A)) (x : nat -> A) (i : nat) (nd : @node A),
  nth_error ns i = Some nd -> is_TSlack (n_typ nd) = false ->
  rowsum zero add mul (trips zero one opp ns bs) i x =
    nodesum zero add sub (fun k b => mul (b_dmn b) (x (length ns + k))) (fun k b => mul (b_dmn b) (x (length ns + k))) i 0 bs
  /\ nth i (eps zero add sub opp ns bs) zero =
     add (opp (n_load nd)) (nodesum zero add sub (@lvf_ A) (@lvt_ A) i 0 bs).
Proof.
  intros A zero one add mul sub opp Rth ns bs x i nd Hn Ht.
  assert (Hi : i < length ns) by (apply nth_error_Some; congruence).
  rewrite (node_row zero one add mul sub opp Rth ns bs x i Hi), (eps_node_entry zero add sub opp ns bs i nd Hn).
  unfold is_slack, typ_of. now rewrite Hn, Ht.
Qed.
Print Assumptions node_row_shape.

(* 2. after the update m' = m - alpha x with ANY solution x of the assembled system the nodal
      imbalance of every non-slack node is (1 - alpha) times the old one *)
Theorem balance_after_step :
  forall (A : Type) (zero one : A) (add mul sub : A -> A -> A) (opp : A -> A),
  ring_theory zero one add mul sub opp eq ->
  forall (ns : list (@node A)) (bs : list (@branch A)) (m x : nat -> A) (alpha : A) (i : nat) (nd : @node A),
  solves zero one add mul sub opp ns bs x -> kernel_cols one bs m ->
  nth_error ns i = Some nd -> is_TSlack (n_typ nd) = false ->
  sub (inflow zero add sub (fun k => sub (m k) (mul (x (length ns + k)) alpha)) i bs) (n_load nd) =
  mul (sub one alpha) (sub (inflow zero add sub m i bs) (n_load nd)).
Proof. exact @balance_lemma. Qed.
Print Assumptions balance_after_step.

(* 3. slack nodes: the slack-mass update (no alpha, as in the code) makes the new slack mass the
      imbalance of the node under the FULL step m - x *)
Theorem slack_balance_after_step :
  forall (A : Type) (zero one : A) (add mul sub : A -> A -> A) (opp : A -> A),
  ring_theory zero one add mul sub opp eq ->
  forall (ns : list (@node A)) (bs : list (@branch A)) (m x : nat -> A) (j s : nat),
  solves zero one add mul sub opp ns bs x -> kernel_cols one bs m -> ends_in_range ns bs ->
  nth_error (slack_nodes ns) j = Some s -> dmsl_of zero ns s = opp one ->
  sub (msl_of zero ns s) (x (length ns + length bs + j)) =
  sub (inflow zero add sub (fun k => sub (m k) (mul (x (length ns + k)) one)) s bs) (load_of zero ns s).
Proof. exact @slack_balance_lemma. Qed.
Print Assumptions slack_balance_after_step.

(* 4a. global balance (graph level): nodal balance everywhere implies total feed = - total load *)
Theorem global_balance :
  forall (A : Type) (zero one : A) (add mul sub : A -> A -> A) (opp : A -> A),
  ring_theory zero one add mul sub opp eq ->
  forall (ns : list (@node A)) (bs : list (@branch A)) (g feed : nat -> A),
  ends_in_range ns bs ->
  (forall i nd, nth_error ns i = Some nd -> is_TSlack (n_typ nd) = false ->
                sub (inflow zero add sub g i bs) (n_load nd) = zero) ->
  (forall s nd, nth_error ns s = Some nd -> is_TSlack (n_typ nd) = true ->
                feed s = sub (inflow zero add sub g s bs) (n_load nd)) ->
  sumlist zero add (map feed (slack_nodes ns)) = opp (sumlist zero add (map (@n_load A) ns)).
Proof. exact @global_balance_lemma. Qed.
Print Assumptions global_balance.

(* 4b. ... and for the values the code writes after one full step from any iterate *)
Theorem global_balance_after_step :
  forall (A : Type) (zero one : A) (add mul sub : A -> A -> A) (opp : A -> A),
  ring_theory zero one add mul sub opp eq ->
  forall (ns : list (@node A)) (bs : list (@branch A)) (m x : nat -> A),
  solves zero one add mul sub opp ns bs x -> kernel_cols one bs m -> ends_in_range ns bs ->
  (forall s, In s (slack_nodes ns) -> dmsl_of zero ns s = opp one) ->
  sumlist zero add (step_msl sub (length ns + length bs) (map (msl_of zero ns) (slack_nodes ns)) x)
  = opp (sumlist zero add (map (@n_load A) ns)).
Proof. exact @global_after_step_lemma. Qed.
Print Assumptions global_balance_after_step.

(* 5. load aggregation of ConstFlow (sinks, sources, mass storages; scaling, sign, in_service;
      any labels and row order): LOAD of node i grows by the sum over the rows attached to i *)
Theorem load_aggregation :
  forall (A : Type) (zero one : A) (add mul sub : A -> A -> A) (opp : A -> A),
  ring_theory zero one add mul sub opp eq ->
  forall (sign : A) (pos : Z -> nat) (rows : list (@cf_row A)) (loads : list A) (i : nat),
  (forall r r', In r rows -> In r' rows -> pos (cf_junction r) = pos (cf_junction r') -> cf_junction r = cf_junction r') ->
  i < length loads ->
  nth i (constflow_entries zero one add mul sign pos rows loads) zero =
  add (nth i loads zero)
      (sumlist zero add (map (cf_value zero one mul sign) (filter (fun r => Nat.eqb (pos (cf_junction r)) i) rows))).
Proof. exact @load_aggregation_lemma. Qed.
Print Assumptions load_aggregation.

(* 6. reported values.  ExtGrid.extract_results: the flows reported for the in-service p/pt ext grids on node i add
      up to the slack mass of node i (even split; [div] must invert the multiplication by the count - true in a field
      whenever at least one such ext grid exists); rows that are out of service or of type t never get a value *)
Theorem ext_grid_share :
  forall (A : Type) (zero one : A) (add mul sub : A -> A -> A) (opp : A -> A),
  ring_theory zero one add mul sub opp eq ->
  forall (div : A -> A -> A) (pos : Z -> nat) (rows : list eg_row) (msl : list A) (i : nat),
  (forall a, mul (div a (eg_count zero one add pos i rows)) (eg_count zero one add pos i rows) = a) ->
  sumlist zero add (map (eg_value zero one add div pos rows msl) (eg_at pos i rows)) = nth i msl zero.
Proof.
  intros A zero one add mul sub opp Rth div pos rows msl i Hd.
  rewrite (map_ext_in _ (fun _ => div (nth i msl zero) (eg_count zero one add pos i rows))).
  - rewrite (sum_const zero one add mul sub opp Rth). apply Hd.
  - intros r Hr. apply filter_In in Hr. destruct Hr as [_ Hr].
    apply andb_true_iff in Hr. destruct Hr as [_ Hr]. apply Nat.eqb_eq in Hr.
    unfold eg_value. now rewrite Hr.
Qed.
Print Assumptions ext_grid_share.

Theorem ext_grid_rows :
  forall (A : Type) (zero one : A) (add : A -> A -> A) (div : A -> A -> A) (pos : Z -> nat) (rows : list eg_row)
         (msl : list A) (old : list (option A)) (k : nat) (r : eg_row),
  length old = length rows -> nth_error rows k = Some r ->
  nth_error (extgrid_results zero one add div pos rows msl old) k =
  Some (if eg_active r then Some (eg_value zero one add div pos rows msl r) else nth k old None).
Proof.
  intros A zero one add div pos rows msl old k r Hl Hr. unfold extgrid_results.
  now rewrite (map_combine_nth_error _ None rows old k r Hl Hr).
Qed.
Print Assumptions ext_grid_rows.

(* 7. ConstFlow.extract_results: a row reports mdot * scaling iff it is in service and its junction is supplied
      (otherwise the NaN of init_results stays), and what the pit aggregated into LOAD_i (theorem 5) is exactly
      sign * (sum of the values reported by the in-service rows at node i) *)
Theorem constflow_results_rows :
  forall (A : Type) (mul : A -> A -> A) (supplied : Z -> bool) (rows : list (@cf_row A)) (old : list (option A))
         (k : nat) (r : @cf_row A),
  length old = length rows -> nth_error rows k = Some r ->
  nth_error (constflow_results mul supplied rows old) k =
  Some (if cf_in_service r && supplied (cf_junction r) then Some (mul (cf_mdot r) (cf_scaling r)) else nth k old None).
Proof.
  intros A mul supplied rows old k r Hl Hr. unfold constflow_results.
  now rewrite (map_combine_nth_error _ None rows old k r Hl Hr).
Qed.
Print Assumptions constflow_results_rows.

Theorem reported_loads_are_LOAD :
  forall (A : Type) (zero one : A) (add mul sub : A -> A -> A) (opp : A -> A),
  ring_theory zero one add mul sub opp eq ->
  forall (sign : A) (pos : Z -> nat) (rows : list (@cf_row A)) (i : nat),
  sumlist zero add (map (cf_value zero one mul sign) (filter (fun r => Nat.eqb (pos (cf_junction r)) i) rows)) =
  mul sign (sumlist zero add (map (reported_or_zero zero mul) (filter (fun r => Nat.eqb (pos (cf_junction r)) i) rows))).
Proof. exact @constflow_reported_lemma. Qed.
Print Assumptions reported_loads_are_LOAD.

(* 8. extract_mdot_signs: for a branch table with internal sections (pipes; secs = sections per row, in table order)
      the placement of C06 applied to mf_from = MDOTINIT and mf_to = - MDOTINIT (get_basic_branch_results, T-tie in
      PropsT.basic_results_mdot) gives every row r whose end section is connected
         mdot_from_r = m of its FIRST section,   mdot_to_r = - m of its LAST section
      and leaves the initial NaN (old) otherwise - for any number of rows and sections *)
Theorem extract_mdot_signs :
  forall (A : Type) (zero : A) (opp : A -> A) (secs : list nat) (conn : list bool) (ms old_from old_to : list A),
  (forall s, In s secs -> 0 < s) ->
  length conn = fold_right plus 0 secs -> length ms = fold_right plus 0 secs ->
  length old_from = length secs -> length old_to = length secs ->
  exists rows_from rows_to,
    place_ext conn (blocks_mask (first_blocks secs)) (branch_mf_from ms) old_from = Some rows_from /\
    place_ext conn (blocks_mask (last_blocks secs)) (branch_mf_to opp ms) old_to = Some rows_to /\
    forall r s, nth_error secs r = Some s ->
      let first := nth r (pos_of_blocks 0 (first_blocks secs)) 0 in
      let last := nth r (pos_of_blocks 0 (last_blocks secs)) 0 in
      nth_error rows_from r = Some (if nth first conn false then nth first ms zero else nth r old_from zero) /\
      nth_error rows_to r = Some (if nth last conn false then opp (nth last ms zero) else nth r old_to zero).
Proof.
  intros A zero opp secs conn ms old_from old_to Hpos Hc Hm Hf Ht.
  destruct (end_node_placement zero secs conn (branch_mf_from ms) old_from Hpos Hc Hm Hf) as [F _].
  assert (Hm' : length (branch_mf_to opp ms) = fold_right plus 0 secs) by (unfold branch_mf_to; now rewrite map_length).
  (* default [opp zero] for the to-values, so that [map_nth] turns nth _ (map opp ms) into opp (nth _ ms zero) *)
  destruct (end_node_placement (opp zero) secs conn (branch_mf_to opp ms) old_to Hpos Hc Hm' Ht) as [_ T].
  eexists. eexists. split; [exact F|]. split; [exact T|].
  intros r s Hr first last.
  assert (Hr1 : nth_error (first_blocks secs) r = Some (0, s - 1)) by (unfold first_blocks; now rewrite nth_error_map, Hr).
  assert (Hr2 : nth_error (last_blocks secs) r = Some (s - 1, 0)) by (unfold last_blocks; now rewrite nth_error_map, Hr).
  assert (Hlt : r < length secs) by (apply nth_error_Some; congruence).
  assert (O1 : nth_error old_from r = Some (nth r old_from zero)) by (apply nth_error_nth'; lia).
  assert (O2 : nth_error old_to r = Some (nth r old_to zero)) by (apply nth_error_nth'; lia).
  split.
  - pose proof (expect_rows_nth zero (first_blocks secs) conn (branch_mf_from ms) old_from r _ _ 0 Hr1 O1) as E.
    simpl skipn in E. exact E.
  - pose proof (expect_rows_nth (opp zero) (last_blocks secs) conn (branch_mf_to opp ms) old_to r _ _ 0 Hr2 O2) as E.
    simpl skipn in E. rewrite E. unfold branch_mf_to. now rewrite map_nth.
Qed.
Print Assumptions extract_mdot_signs.

(* ---------------------------------------------------------------- non-vacuity: a meshed net with two parallel
   branches, a self loop and two slack nodes; x is a solution of its assembled system at Z *)
Definition ex_nodes : list (@node Z) :=
  [nd TSlack 2 5 (-1); nd TOther 3 0 0; nd TOther (-1) 0 0; nd TSlack 0 (-2) (-1); nd TOther 4 0 0].
Definition ex_m (k : nat) : Z := nth k [3; -2; 5; 1; 4; 7; 2]%Z 0%Z.
Definition ex_branches : list (@branch Z) :=
  [br 0 1 2 1 (-1) 1 (-11) 3 3 false; br 1 2 3 1 (-1) 1 17 (-2) (-2) false; br 1 2 1 1 (-1) 1 0 5 5 false;
   br 2 3 2 1 (-1) 1 4 1 1 false; br 2 4 1 1 (-1) 1 (-6) 4 4 false; br 4 4 5 1 (-1) 1 (-5) 7 7 false;
   br 0 4 1 1 (-1) 1 4 2 2 false].
Definition ex_x (i : nat) : Z := nth i [0; 3; -2; 0; 1; -4; 4; -5; 3; -3; -1; 5; 11; 0]%Z 0%Z.

Example example_guards :
  ends_in_range ex_nodes ex_branches /\ kernel_cols 1%Z ex_branches ex_m /\
  slack_nodes ex_nodes = [0; 3] /\ dim ex_nodes ex_branches = 14.
Proof.
  split; [|split; [|split; reflexivity]].
  - intros b H. simpl in H. repeat (destruct H as [<-|H]; [simpl; split; repeat constructor|]). destruct H.
  - intros k b H. do 7 (destruct k as [|k]; [injection H as <-; repeat split; reflexivity|]).
    destruct k; discriminate.
Qed.

Example example_solves : solves 0%Z 1%Z Z.add Z.mul Z.sub Z.opp ex_nodes ex_branches ex_x.
Proof.
  intros r Hr. change (dim ex_nodes ex_branches) with 14 in Hr.
  do 14 (destruct r as [|r]; [vm_compute; reflexivity|]). lia.
Qed.

(* the conclusion of theorem 2 on the example (alpha = 1): exact balance at the non-slack nodes *)
Example example_balance :
  map (fun i => (inflow 0 Z.add Z.sub (fun k => ex_m k - ex_x (5 + k) * 1) i ex_branches - load_of 0%Z ex_nodes i)%Z) [1; 2; 4]
  = [0; 0; 0]%Z.
Proof. vm_compute. reflexivity. Qed.

(* load aggregation on a concrete table: labels 100005 / 7 / 3 in arbitrary row order, two rows on one junction,
   scaling, an out-of-service row, sign -1 (sources); hypotheses of theorem 5 hold (pos is injective) *)
Example example_load_aggregation :
  constflow_entries 0%Z 1%Z Z.add Z.mul (-1)%Z (zassoc [(100005%Z, 2); (7%Z, 0); (3%Z, 1)] 9)
    [cf 100005 4 2 true; cf 3 5 1 true; cf 100005 1 3 true; cf 7 6 1 false] [10; 20; 30]%Z = [10; 15; 19]%Z.
Proof. vm_compute. reflexivity. Qed.

(* ext-grid share on a concrete table at Q: three ext grids on junction 7 (one out of service, one of type t is not
   counted), slack mass 120 -> the two active ones report 60 each; the div hypothesis of theorem 6 holds (count = 2) *)
Example example_ext_grid_share :
  extgrid_results 0%Q 1%Q Qplus Qdiv (zassoc [(7%Z, 1); (3%Z, 0)] 9)
    [eg 7 true true; eg 7 true false; eg 3 true true; eg 7 false true; eg 7 true true] [30; 120]%Q
    [None; None; None; None; None]
  = [Some (Qdiv 120 (1 + (1 + 0))); None; Some (Qdiv 30 (1 + 0)); None; Some (Qdiv 120 (1 + (1 + 0)))]%Q
  /\ (forall a : Q, Qeq (Qmult (Qdiv a (1 + (1 + 0))) (1 + (1 + 0))) a).
Proof. split; [vm_compute; reflexivity|]. intros a. field. Qed.

Example example_constflow_results :
  constflow_results Z.mul (fun l => existsb (Z.eqb l) [3; 100005]%Z)
    [cf 100005 4 2 true; cf 3 5 1 false; cf 8 1 3 true] [None; None; None] = [Some 8%Z; None; None].
Proof. vm_compute. reflexivity. Qed.

(* three pipes with 1 / 3 / 2 sections, the last pipe disconnected: from-values are the first, to-values minus the last
   section flows of each connected row *)
Example example_mdot_signs :
  place_ext [true; true; true; true; false; false] (blocks_mask (first_blocks [1; 3; 2]))
            (branch_mf_from [5; 7; 7; 7; 2; 2]%Z) [0; 0; 0]%Z = Some [5; 7; 0]%Z /\
  place_ext [true; true; true; true; false; false] (blocks_mask (last_blocks [1; 3; 2]))
            (branch_mf_to Z.opp [5; 7; 8; 9; 2; 3]%Z) [0; 0; 0]%Z = Some [-5; -9; 0]%Z.
Proof. vm_compute. split; reflexivity. Qed.
