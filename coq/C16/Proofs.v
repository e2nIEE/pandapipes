(* C16 - proofs about the NetDB model (coq/C16/Model.v).
   The guards of [precheck], [create1_core] and [create_bulk_core] are inverted once ([*_inr]); what an
   accepted call does to the db is the relation [appended], and both invariants are proved over it. *)
From Coq Require Import String List Bool ZArith Lia.
From PP Require Import Base.Assoc C16.Model.
Import ListNotations.
Open Scope string_scope.
Open Scope Z_scope.
Open Scope list_scope.

Lemma tab_insert d t rs t' :
  tab (insert_rows d t rs) t' = if String.eqb t' t then tab d t ++ rs else tab d t'.
Proof.
  unfold tab at 1, insert_rows; simpl. rewrite get_set. now destruct (String.eqb_spec t' t) as [->|].
Qed.

Lemma tab_insert_same d t rs : tab (insert_rows d t rs) t = tab d t ++ rs.
Proof. now rewrite tab_insert, String.eqb_refl. Qed.

Lemma tab_insert_other d t t' rs : t' <> t -> tab (insert_rows d t rs) t' = tab d t'.
Proof. intros H. rewrite tab_insert. now destruct (String.eqb_spec t' t). Qed.

Lemma std_insert d t rs : d_std (insert_rows d t rs) = d_std d.
Proof. reflexivity. Qed.

Lemma tab_reg s d a t : tab (reg s d a) t = tab d t.
Proof. unfold reg. destruct (a_reg_std a); auto. destruct (s_std s) as [[? ?]|]; auto. Qed.

Lemma has_label_app l rs z : has_label (l ++ rs) z = has_label l z || has_label rs z.
Proof. unfold has_label, labels. now rewrite map_app, existsb_app. Qed.

Lemma has_label_In l z : has_label l z = true <-> In z (labels l).
Proof.
  unfold has_label. rewrite existsb_exists. split.
  - intros [x [Hin He]]. apply Z.eqb_eq in He. now subst.
  - intros H. exists z. split; auto. apply Z.eqb_refl.
Qed.

Lemma has_label_false l z : has_label l z = false <-> ~ In z (labels l).
Proof. rewrite <- has_label_In. now destruct (has_label l z). Qed.

Definition ext (d d' : db) : Prop :=
  (forall t z, has_label (tab d t) z = true -> has_label (tab d' t) z = true) /\
  (forall s, std_ok d s = true -> std_ok d' s = true).

Lemma ext_refl d : ext d d.
Proof. split; auto. Qed.

Lemma ext_trans a b c : ext a b -> ext b c -> ext a c.
Proof. intros [H1 H2] [H3 H4]. split; auto. Qed.

Lemma ext_insert d t rs : ext d (insert_rows d t rs).
Proof.
  split; auto. intros t' z H. rewrite tab_insert.
  destruct (String.eqb_spec t' t) as [->|]; [now rewrite has_label_app, H | exact H].
Qed.

Lemma ext_reg s d a : ext d (reg s d a).
Proof.
  split.
  - intros t z. now rewrite tab_reg.
  - intros x H. unfold reg. destruct (a_reg_std a); auto. destruct (s_std s) as [[t c]|]; auto.
    unfold std_ok in *. simpl. rewrite H. apply orb_true_r.
Qed.

Lemma row_ok_ext d d' r : ext d d' -> row_ok d r = true -> row_ok d' r = true.
Proof.
  intros [El Es] H. unfold row_ok in *. apply andb_true_iff in H. destruct H as [H1 H2].
  apply andb_true_iff. split; apply forallb_forall; intros x Hx.
  - apply El. exact (proj1 (forallb_forall _ _) H1 x Hx).
  - apply Es. exact (proj1 (forallb_forall _ _) H2 x Hx).
Qed.

Lemma nodup_app_intro (l r : list Z) :
  NoDup l -> NoDup r -> (forall z, In z r -> ~ In z l) -> NoDup (l ++ r).
Proof.
  induction l as [|x l IH]; simpl; intros Hl Hr Hd; auto.
  inversion Hl; subst. constructor.
  - rewrite in_app_iff. intros [H|H]; auto. apply (Hd x H). now left.
  - apply IH; auto. intros z Hz Hin. apply (Hd z Hz). now right.
Qed.

Lemma wf_insert d t rs :
  wf d -> NoDup (labels rs) ->
  (forall z, In z (labels rs) -> has_label (tab d t) z = false) ->
  (forall r, In r rs -> row_ok d r = true) ->
  wf (insert_rows d t rs).
Proof.
  intros [Hn Hr] Hnd Hfresh Hok. split.
  - intros t'. rewrite tab_insert. destruct (String.eqb t' t); [|apply Hn].
    unfold labels. rewrite map_app. apply nodup_app_intro; auto; try apply Hn.
    intros z Hz. apply has_label_false. now apply Hfresh.
  - intros t' r. rewrite tab_insert. intros Hin. apply (row_ok_ext d); [apply ext_insert|].
    destruct (String.eqb t' t); [|eauto]. apply in_app_or in Hin. destruct Hin; eauto.
Qed.

Lemma precheck_inr s d a rs : precheck s d a = inr rs ->
  a_invalid a = false /\ resolve a (s_refcols s) (a_refvals a) = Some rs /\
  forallb (res_ok d (hd 0 (a_refvals a))) rs = true /\
  forallb (std_ok d) (std_refs s a true) = true /\ s_eg s && a_pt_null a = false.
Proof.
  unfold precheck. destruct (a_invalid a); [discriminate|].
  destruct (resolve a (s_refcols s) (a_refvals a)) as [rs'|]; [|discriminate].
  destruct (forallb (res_ok d _) rs') eqn:F; simpl; [|discriminate].
  destruct (forallb (std_ok d) _); simpl; [|discriminate].
  destruct (s_eg s && a_pt_null a); [discriminate|].
  intros H. inversion H; subst. repeat split. exact F.
Qed.

Lemma create1_core_inr s d a lab d' : create1_core s d a = inr (lab, d') ->
  exists rs, precheck s d a = inr rs /\
    lab = match a_index a with Some i => i | None => next_label (tab d (s_table s)) end /\
    has_label (tab d (s_table s)) lab = false /\
    d' = insert_rows (reg s d a) (s_table s) [mkrow s a rs lab].
Proof.
  unfold create1_core. destruct (precheck s d a) as [e|rs]; [discriminate|].
  destruct (has_label _ _) eqn:Hl; [discriminate|].
  intros H. inversion H; subst. exists rs. repeat split; auto.
Qed.

Lemma create_bulk_core_inr s d b labs d' : create_bulk_core s d b = inr (labs, d') ->
  exists xs, b_len_ok b = true /\ labs = bulk_labels d s b /\ length labs = length (b_rows b) /\
    nodupb labs = true /\ existsb (has_label (tab d (s_table s))) labs = false /\
    precheck_all s d (b_rows b) = inr xs /\ d' = insert_rows d (s_table s) (mkrows s xs labs).
Proof.
  unfold create_bulk_core. destruct (b_len_ok b); simpl; [|discriminate].
  destruct (Nat.eqb _ _) eqn:EL; simpl; [|discriminate].
  destruct (nodupb _) eqn:ND; simpl; [|discriminate].
  destruct (existsb _ _) eqn:EX; [discriminate|].
  destruct (precheck_all _ _ _) as [e|xs]; [discriminate|].
  intros H. inversion H; subst. apply Nat.eqb_eq in EL. exists xs. repeat split; auto.
Qed.

(* how a call ends: accepted calls come from the core, a failing one that changed the db failed late *)
Lemma create1_ok s d a labs d' :
  create1 s d a = (Ok labs, d') -> exists lab, labs = [lab] /\ create1_core s d a = inr (lab, d').
Proof.
  unfold create1. destruct (create1_core s d a) as [e|[lab d0]]; [discriminate|].
  destruct (s_late s && a_late_bad a); intros H; inversion H; subst. eauto.
Qed.

Lemma create_bulk_ok s d b labs d' :
  create_bulk s d b = (Ok labs, d') -> create_bulk_core s d b = inr (labs, d').
Proof.
  unfold create_bulk. destruct (create_bulk_core s d b) as [e|[labs0 d0]]; [discriminate|].
  destruct (s_late s && _); intros H; inversion H; subst. reflexivity.
Qed.

Lemma create1_err s d a e d' :
  create1 s d a = (Err e, d') -> d' = d \/ (e = ELate /\ s_late s && a_late_bad a = true).
Proof.
  unfold create1. destruct (create1_core s d a) as [e0|[lab d0]]; [intros H; inversion H; auto|].
  destruct (s_late s && a_late_bad a); intros H; inversion H; auto.
Qed.

Lemma create_bulk_err s d b e d' :
  create_bulk s d b = (Err e, d') -> d' = d \/ (e = ELate /\ s_late s && existsb a_late_bad (b_rows b) = true).
Proof.
  unfold create_bulk. destruct (create_bulk_core s d b) as [e0|[labs d0]]; [intros H; inversion H; auto|].
  destruct (s_late s && _); intros H; inversion H; auto.
Qed.

Lemma atomic_only_late_lemma : forall s d a e d',
  create1 s d a = (Err e, d') -> e <> ELate -> d' = d.
Proof. intros s d a e d' H Hne. destruct (create1_err _ _ _ _ _ H) as [|[E _]]; [assumption|contradiction]. Qed.

Lemma nodupb_NoDup l : nodupb l = true -> NoDup l.
Proof.
  induction l as [|x l IH]; simpl; intros H; constructor; apply andb_true_iff in H; destruct H as [H1 H2]; auto.
  apply negb_true_iff in H1. intros Hin. rewrite (proj2 (existsb_exists _ _)) in H1; [discriminate|].
  exists x. split; auto. apply Z.eqb_refl.
Qed.

Lemma fresh_labels l labs : nodupb labs = true -> existsb (has_label l) labs = false ->
  NoDup labs /\ forall z, In z labs -> has_label l z = false.
Proof.
  intros ND EX. split; [now apply nodupb_NoDup|]. intros z Hz. apply not_true_is_false. intros E.
  rewrite (proj2 (existsb_exists _ _)) in EX; [discriminate | eauto].
Qed.

Lemma precheck_all_length s d rows xs : precheck_all s d rows = inr xs -> length xs = length rows.
Proof.
  revert xs. induction rows as [|a r IH]; simpl; intros xs H.
  - now inversion H.
  - destruct (precheck s d a); try discriminate. destruct (precheck_all s d r); try discriminate.
    inversion H; subst. simpl. f_equal. auto.
Qed.

Lemma precheck_all_in s d rows : forall xs a rs,
  precheck_all s d rows = inr xs -> In (a, rs) xs -> In a rows /\ precheck s d a = inr rs.
Proof.
  induction rows as [|a0 rows IH]; simpl; intros xs a rs H Hin.
  - inversion H; subst. destruct Hin.
  - destruct (precheck s d a0) as [|rs0] eqn:P; [discriminate|].
    destruct (precheck_all s d rows) as [|rest]; [discriminate|].
    inversion H; subst. destruct Hin as [E|Hin]; [inversion E; subst; auto|].
    destruct (IH _ _ _ eq_refl Hin); auto.
Qed.

Lemma precheck_all_inl s d rows a e :
  In a rows -> precheck s d a = inl e -> exists e', precheck_all s d rows = inl e'.
Proof.
  induction rows as [|x rows IH]; simpl; intros Hin P; [destruct Hin|].
  destruct Hin as [->|Hin].
  - rewrite P. eauto.
  - destruct (IH Hin P) as [e' ->]. destruct (precheck s d x); eauto.
Qed.

Lemma mkrows_labels s xs labs : length labs = length xs -> labels (mkrows s xs labs) = labs.
Proof.
  revert labs. induction xs as [|[a rs] xs IH]; intros [|l labs]; simpl; intros H; try discriminate; auto.
  f_equal. apply IH. lia.
Qed.

Lemma bulk_rows_labels s d rows xs labs :
  precheck_all s d rows = inr xs -> length labs = length rows -> labels (mkrows s xs labs) = labs.
Proof. intros PA L. apply mkrows_labels. rewrite L. symmetry. now apply precheck_all_length with s d. Qed.

Lemma mkrows_in s xs : forall labs r,
  In r (mkrows s xs labs) -> exists a rs, In (a, rs) xs /\ r = mkrow s a rs (r_label r).
Proof.
  induction xs as [|[a rs] xs IH]; intros [|l labs] r H; simpl in H; try contradiction.
  destruct H as [<-|H].
  - exists a, rs. split; [now left|reflexivity].
  - destruct (IH _ _ H) as (a' & rs' & H1 & H2). exists a', rs'. split; [now right|exact H2].
Qed.

(* what a call does to the db: nothing, or it appends prechecked rows with fresh, distinct labels to
   its table, possibly after registering a std type (then [d0] is [reg s d a]) *)
Inductive appended (s : schema) (d : db) : db -> Prop :=
| appended_none : appended s d d
| appended_rows d0 rows :
    (forall t, tab d0 t = tab d t) -> ext d d0 ->
    NoDup (labels rows) -> (forall z, In z (labels rows) -> has_label (tab d (s_table s)) z = false) ->
    (forall r, In r rows -> exists a rs, precheck s d a = inr rs /\ r = mkrow s a rs (r_label r)) ->
    appended s d (insert_rows d0 (s_table s) rows).

Lemma create1_core_appended s d a lab d' : create1_core s d a = inr (lab, d') -> appended s d d'.
Proof.
  intros C. apply create1_core_inr in C. destruct C as (rs & P & _ & Hl & ->).
  apply appended_rows.
  - intros t. apply tab_reg.
  - apply ext_reg.
  - simpl. constructor; [intros []|constructor].
  - simpl. intros z [<-|[]]. exact Hl.
  - intros r [<-|[]]. exists a, rs. auto.
Qed.

Lemma create_bulk_core_appended s d b labs d' : create_bulk_core s d b = inr (labs, d') -> appended s d d'.
Proof.
  intros C. apply create_bulk_core_inr in C. destruct C as (xs & _ & _ & L & ND & EX & PA & ->).
  destruct (fresh_labels _ _ ND EX) as [ND' F].
  apply appended_rows; try rewrite (bulk_rows_labels _ _ _ _ _ PA L); auto using ext_refl.
  intros r Hin. destruct (mkrows_in _ _ _ _ Hin) as (a & rs & Hx & E).
  exists a, rs. split; [eapply precheck_all_in; eauto | exact E].
Qed.

Definition call_schema (c : call) : schema := match c with Single s _ => s | Bulk s _ => s end.

Lemma step_appended d c : appended (call_schema c) d (step d c).
Proof.
  destruct c as [s a|s b]; simpl.
  - unfold create1. destruct (create1_core s d a) as [e|[lab d']] eqn:C; simpl; [constructor|].
    apply create1_core_appended in C. now destruct (s_late s && a_late_bad a).
  - unfold create_bulk. destruct (create_bulk_core s d b) as [e|[labs d']] eqn:C; simpl; [constructor|].
    apply create_bulk_core_appended in C. now destruct (s_late s && existsb a_late_bad (b_rows b)).
Qed.

Lemma checked_part_ok d j0 rs :
  forallb (res_ok d j0) rs = true -> forallb (ref_ok d) (checked_part rs) = true.
Proof.
  induction rs as [|[[chk conn] tv] rs IH]; simpl; auto.
  intros H. apply andb_true_iff in H. destruct H as [H1 H2].
  unfold checked_part in *. simpl. destruct chk; simpl in *; auto.
  apply andb_true_iff in H1. destruct H1 as [H1 _]. rewrite H1. simpl. auto.
Qed.

Lemma precheck_row_ok s d a rs lab : precheck s d a = inr rs -> row_ok d (mkrow s a rs lab) = true.
Proof.
  intros P. apply precheck_inr in P. destruct P as (_ & _ & F & S & _).
  unfold row_ok, mkrow; simpl. now rewrite (checked_part_ok _ _ _ F), S.
Qed.

Lemma appended_wf s d d' : appended s d d' -> wf d -> wf d'.
Proof.
  intros [|d0 rows Ht E ND F P] Hwf; [exact Hwf|]. destruct Hwf as [Hn Hr].
  apply wf_insert; auto.
  - split; intros t; rewrite Ht; [apply Hn | intros r Hin; apply (row_ok_ext d); eauto].
  - intros z Hz. rewrite Ht. auto.
  - intros r Hin. destruct (P r Hin) as (a & rs & Pa & Er). rewrite Er.
    apply (row_ok_ext d); [exact E|]. now apply precheck_row_ok.
Qed.

Lemma wf_empty std : wf (empty_db std).
Proof. split; intros t; unfold tab; simpl; [constructor|intros r []]. Qed.

Lemma run_wf cs : forall d, wf d -> wf (run d cs).
Proof.
  induction cs as [|c cs IH]; simpl; auto. intros d H. apply IH.
  exact (appended_wf _ _ _ (step_appended d c) H).
Qed.

(* complete referential integrity when every schema used checks all its reference columns *)
Definition wf_full (d : db) : Prop := forall t r, In r (tab d t) -> row_ok_full d r = true.

Lemma loose_nil_of_checked a cols : forall vals rs,
  forallb rc_checked cols = true -> resolve a cols vals = Some rs -> loose_part rs = [].
Proof.
  induction cols as [|c cols IH]; intros [|v vals] rs Hc H; simpl in *; try discriminate.
  - now inversion H.
  - apply andb_true_iff in Hc. destruct Hc as [Hc1 Hc2].
    destruct (sel a (rc_tsel c)) as [[t conn]|]; try discriminate.
    destruct (resolve a cols vals) as [r|] eqn:R; try discriminate.
    inversion H; subst. unfold loose_part. simpl. rewrite Hc1. simpl. eapply IH; eauto.
Qed.

Lemma mkrow_loose_nil s d a rs lab :
  fully_checked s = true -> precheck s d a = inr rs ->
  r_loose (mkrow s a rs lab) = [] /\ r_loose_std (mkrow s a rs lab) = [].
Proof.
  intros F P. unfold fully_checked in F. apply andb_true_iff in F. destruct F as [F1 F2]. split; simpl.
  - apply precheck_inr in P. destruct P as (_ & R & _). eapply loose_nil_of_checked; eauto.
  - unfold std_refs. destruct (s_std s) as [[t c]|]; auto. subst. reflexivity.
Qed.

Definition loose_free (d : db) : Prop := forall t r, In r (tab d t) -> r_loose r = [] /\ r_loose_std r = [].

Lemma appended_loose_free s d d' : fully_checked s = true -> appended s d d' -> loose_free d -> loose_free d'.
Proof.
  intros Fc [|d0 rows Ht _ _ _ P] H; [exact H|]. intros t r. rewrite tab_insert.
  destruct (String.eqb t (s_table s)); [|rewrite Ht; apply H].
  intros Hin. apply in_app_or in Hin. destruct Hin as [Hin|Hin]; [rewrite Ht in Hin; eapply H; eauto|].
  destruct (P r Hin) as (a & rs & Pa & Er). rewrite Er. eapply mkrow_loose_nil; eauto.
Qed.

Lemma run_loose_free cs : forall d, Forall (fun c => fully_checked (call_schema c) = true) cs ->
  loose_free d -> loose_free (run d cs).
Proof.
  induction cs as [|c cs IH]; simpl; auto. intros d F H. inversion F; subst.
  apply IH; auto. apply (appended_loose_free (call_schema c) d); auto using step_appended.
Qed.

Lemma run_wf_full cs d : Forall (fun c => fully_checked (call_schema c) = true) cs ->
  wf d -> loose_free d -> wf_full (run d cs).
Proof.
  intros F Hwf L t r Hin. unfold row_ok_full.
  rewrite (proj2 (run_wf cs d Hwf) _ _ Hin). now destruct (run_loose_free cs d F L _ _ Hin) as [-> ->].
Qed.

(* a call is rejected when the guards of [precheck] cannot all pass *)
Lemma rejects_by_precheck s d a :
  (forall rs, resolve a (s_refcols s) (a_refvals a) = Some rs ->
     forallb (res_ok d (hd 0 (a_refvals a))) rs = true ->
     forallb (std_ok d) (std_refs s a true) = true -> s_eg s && a_pt_null a = false -> False) ->
  exists e, create1 s d a = (Err e, d).
Proof.
  intros H. destruct (precheck s d a) as [e|rs] eqn:P.
  { exists e. unfold create1, create1_core. now rewrite P. }
  apply precheck_inr in P. destruct P as (_ & R & F & S & E). destruct (H rs R F S E).
Qed.

Lemma rejects_by_res_ok s d a rs x :
  resolve a (s_refcols s) (a_refvals a) = Some rs -> In x rs -> res_ok d (hd 0 (a_refvals a)) x = false ->
  exists e, create1 s d a = (Err e, d).
Proof.
  intros R Hin Hbad. apply rejects_by_precheck. intros rs' R' F _ _.
  rewrite R in R'. inversion R'; subst.
  rewrite (proj1 (forallb_forall _ _) F x Hin) in Hbad. discriminate.
Qed.

Lemma resolve_unknown_et a cols :
  existsb (fun c => match rc_tsel c with ByEt => true | _ => false end) cols = true -> a_et a = None ->
  forall vals, resolve a cols vals = None.
Proof.
  intros Hex Het. induction cols as [|c cols IH]; [discriminate|]. intros [|v vals]; [reflexivity|].
  simpl in *. destruct (rc_tsel c); simpl in *; [now rewrite IH | now rewrite Het].
Qed.

Definition db_eq (d1 d2 : db) : Prop := (forall t, tab d1 t = tab d2 t) /\ d_std d1 = d_std d2.

Lemma db_eq_refl d : db_eq d d. Proof. split; auto. Qed.
Lemma db_eq_trans a b c : db_eq a b -> db_eq b c -> db_eq a c.
Proof. intros [H1 H2] [H3 H4]. split; [intros t; now rewrite H1|congruence]. Qed.

Lemma insert_db_eq d1 d2 t rs : db_eq d1 d2 -> db_eq (insert_rows d1 t rs) (insert_rows d2 t rs).
Proof. intros [Ht Hs]. split; simpl; auto. intros t'. now rewrite !tab_insert, !Ht. Qed.

Lemma insert_rows_nil d t : db_eq d (insert_rows d t []).
Proof.
  split; [|reflexivity]. intros t'. rewrite tab_insert.
  destruct (String.eqb_spec t' t) as [->|]; [now rewrite app_nil_r | reflexivity].
Qed.

Lemma insert_rows_app d t r1 r2 : db_eq (insert_rows (insert_rows d t r1) t r2) (insert_rows d t (r1 ++ r2)).
Proof.
  split; [|reflexivity]. intros t'. rewrite !tab_insert.
  destruct (String.eqb t' t); [rewrite String.eqb_refl; symmetry; apply app_assoc | reflexivity].
Qed.

(* [precheck] looks at the db through the tables its references point into and the std library *)
Lemma res_ok_agree d1 d2 j (x : res) :
  tab d1 (target_tab (fst (snd x))) = tab d2 (target_tab (fst (snd x))) ->
  (snd (fst x) = true -> tab d1 "pipe" = tab d2 "pipe") -> res_ok d1 j x = res_ok d2 j x.
Proof.
  destruct x as [[chk conn] [t v]]. simpl. intros Ht Hp. unfold ref_ok, pipe_connected. simpl. rewrite Ht.
  destruct conn; [now rewrite Hp | reflexivity].
Qed.

Lemma precheck_agree s d1 d2 a :
  (forall rs, resolve a (s_refcols s) (a_refvals a) = Some rs ->
     Forall (fun x : res => tab d1 (target_tab (fst (snd x))) = tab d2 (target_tab (fst (snd x))) /\
                           (snd (fst x) = true -> tab d1 "pipe" = tab d2 "pipe")) rs) ->
  d_std d1 = d_std d2 -> precheck s d1 a = precheck s d2 a.
Proof.
  intros Ht Hs. unfold precheck. destruct (a_invalid a); [reflexivity|].
  destruct (resolve a (s_refcols s) (a_refvals a)) as [rs|]; [|reflexivity].
  assert (E : forallb (res_ok d1 (hd 0 (a_refvals a))) rs = forallb (res_ok d2 (hd 0 (a_refvals a))) rs).
  { specialize (Ht rs eq_refl). induction Ht as [|x l [H1 H2] _ IH]; simpl; [reflexivity|].
    now rewrite IH, (res_ok_agree d1 d2). }
  rewrite E. unfold std_ok. now rewrite Hs.
Qed.

Lemma precheck_db_eq s d1 d2 a : db_eq d1 d2 -> precheck s d1 a = precheck s d2 a.
Proof.
  intros [Ht Hs]. apply precheck_agree; [|exact Hs]. intros rs _. apply Forall_forall. now split.
Qed.

(* the test [no_self_ref] makes of one reference column *)
Definition col_ok (tbl : string) (c : refcol) : bool :=
  match rc_tsel c with
  | Fixed t => negb (String.eqb (target_tab t) tbl)
  | ByEt => negb (String.eqb "junction" tbl) && negb (String.eqb "pipe" tbl)
  end.

Lemma no_self_ref_cols s : no_self_ref s = forallb (col_ok (s_table s)) (s_refcols s).
Proof. reflexivity. Qed.

Lemma sel_foreign a tbl c t conn :
  col_ok tbl c = true -> sel a (rc_tsel c) = Some (t, conn) ->
  target_tab t <> tbl /\ (conn = true -> "pipe" <> tbl).
Proof.
  unfold col_ok, sel. destruct (rc_tsel c) as [t0|]; intros H S.
  - inversion S; subst. apply negb_true_iff, String.eqb_neq in H. now split.
  - apply andb_true_iff in H. destruct H as [Hj Hp].
    apply negb_true_iff, String.eqb_neq in Hj. apply negb_true_iff, String.eqb_neq in Hp.
    destruct (a_et a) as [[|]|]; inversion S; subst; auto.
Qed.

Lemma resolve_foreign a tbl cols : forall vals rs,
  forallb (col_ok tbl) cols = true -> resolve a cols vals = Some rs ->
  Forall (fun x : res => target_tab (fst (snd x)) <> tbl /\ (snd (fst x) = true -> "pipe" <> tbl)) rs.
Proof.
  induction cols as [|c cols IH]; intros [|v vals] rs Hc H; simpl in *; try discriminate.
  - inversion H. constructor.
  - apply andb_true_iff in Hc. destruct Hc as [Hc1 Hc2].
    destruct (sel a (rc_tsel c)) as [[t conn]|] eqn:S; try discriminate.
    destruct (resolve a cols vals) as [r|] eqn:R; try discriminate.
    inversion H; subst. constructor; [exact (sel_foreign _ _ _ _ _ Hc1 S) | eapply IH; eauto].
Qed.

Lemma precheck_insert_own s d a rows :
  no_self_ref s = true -> precheck s (insert_rows d (s_table s) rows) a = precheck s d a.
Proof.
  intros N. rewrite no_self_ref_cols in N. apply precheck_agree; [|reflexivity]. intros rs R.
  eapply Forall_impl; [|exact (resolve_foreign a (s_table s) _ _ _ N R)].
  intros x [H1 H2]. split; [|intros C]; apply tab_insert_other; auto.
Qed.

Lemma precheck_all_insert_own s d rows0 rows :
  no_self_ref s = true -> precheck_all s (insert_rows d (s_table s) rows0) rows = precheck_all s d rows.
Proof.
  intros N. induction rows as [|a rows IH]; simpl; auto. now rewrite precheck_insert_own, IH.
Qed.

Lemma resolve_with_index a i cols : forall vals, resolve (with_index a i) cols vals = resolve a cols vals.
Proof. induction cols as [|c cols IH]; intros [|v vals]; simpl; auto. now rewrite IH. Qed.

Lemma precheck_with_index s d a i : precheck s d (with_index a i) = precheck s d a.
Proof. unfold precheck. simpl. now rewrite resolve_with_index. Qed.

Lemma create1_core_with_index s d a i :
  create1_core s d (with_index a i) =
  match precheck s d a with
  | inl e => inl e
  | inr rs =>
      let lab := match i with Some i => i | None => next_label (tab d (s_table s)) end in
      if has_label (tab d (s_table s)) lab then inl EDupIndex
      else inr (lab, insert_rows (reg s d a) (s_table s) [mkrow s a rs lab])
  end.
Proof. unfold create1_core. rewrite precheck_with_index. reflexivity. Qed.

Lemma fold_single_spec s : no_self_ref s = true ->
  forall rows xs labs d,
  Forall (fun a => a_reg_std a = false) rows ->
  precheck_all s d rows = inr xs -> length labs = length rows -> NoDup labs ->
  (forall z, In z labs -> has_label (tab d (s_table s)) z = false) ->
  exists d'', fold_single s d rows (map Some labs) = inr (labs, d'') /\
              db_eq d'' (insert_rows d (s_table s) (mkrows s xs labs)).
Proof.
  intros N. induction rows as [|a rows IH]; intros xs labs d Hreg PA HL ND F.
  - destruct labs; [|discriminate]. inversion PA; subst. exists d. split; [reflexivity | apply insert_rows_nil].
  - destruct labs as [|l labs]; [discriminate|]. simpl in PA.
    destruct (precheck s d a) as [|rs] eqn:P; [discriminate|].
    destruct (precheck_all s d rows) as [|rest] eqn:PA'; [discriminate|].
    inversion PA; subst. inversion Hreg as [|? ? Ha Hreg']; subst. inversion ND as [|? ? Hl ND']; subst.
    simpl. rewrite create1_core_with_index, P. simpl. rewrite (F l) by now left.
    replace (reg s d a) with d by (unfold reg; now rewrite Ha).
    set (d1 := insert_rows d (s_table s) [mkrow s a rs l]).
    destruct (IH rest labs d1) as (d'' & Fd & E); auto.
    + unfold d1. now rewrite precheck_all_insert_own.
    + (* the remaining labels are fresh in d1: not in d, and different from l *)
      intros z Hz. unfold d1. rewrite tab_insert_same, has_label_app, (F z) by now right.
      apply has_label_false. intros [E0|[]]. simpl in E0. subst. contradiction.
    + rewrite Fd. exists d''. split; [reflexivity|]. eapply db_eq_trans; [exact E|]. apply insert_rows_app.
Qed.

Lemma next_label_snoc l r : r_label r = next_label l -> next_label (l ++ [r]) = r_label r + 1.
Proof.
  unfold next_label, labels. rewrite map_app. simpl. destruct l as [|x l]; simpl; auto.
  intros H. rewrite fold_left_app. simpl. lia.
Qed.

Lemma arg_value_some s a p v : arg_value s a p = Some v ->
  (exists x, get p (a_vals a) = Some x /\ v = x) \/ (get p (a_vals a) = None /\ get p (s_ndefaults s) = Some v).
Proof. unfold arg_value. destruct (get p (a_vals a)) as [x|]; intros H; [inversion H; eauto | auto]. Qed.

Definition all_egt : list egt := [Auto; TyP; TyT; TyPT; TyTP; TyOther].
Definition all_bool : list bool := [true; false].

(* one row of the vectorised function against the scalar one *)
Lemma auto_type_vec_row pn tn ty : egt_eqb ty TyOther = false ->
  auto_type pn tn ty = if vec_row_bad (pn, tn, ty) then None else Some (vec_row_type (pn, tn, ty)).
Proof. now destruct pn, tn, ty. Qed.

Lemma auto_type_sound_lemma : forall pn tn ty r,
  auto_type pn tn ty = Some r -> ty <> TyOther ->
  (r = TyP \/ r = TyT \/ r = TyPT) /\
  (pn = true -> r = TyT) /\ (tn = true -> r = TyP) /\ (pn && tn = false).
Proof. intros [|] [|] [] r H Hn; simpl in H; inversion H; subst; try congruence; repeat split; auto; try discriminate. Qed.
