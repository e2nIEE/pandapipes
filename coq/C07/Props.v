(* C07 - property theorems (kernel twins) over the generated kernels.  The two engines differ in how a mask is written
   ([~(x <= t)] in numpy, [t < x] in numba: Rltb_negb_Rleb) and in the arrangement of sums and products.  Every equation
   between them is closed by [ring], also where the two expressions happen to be the same today, so that reordering the
   operands of one source does not break a proof; where [ring] alone fails, arguments of [/], [Rabs], [exp] are made to
   agree first (ring_atoms, same_atoms of Kern/RBool.v).  The update-path and grouped-sum theorems are in PropsAsm.v and
   PropsSbg.v. *)
From Coq Require Import Reals Bool Lra.
From PP Require Import Kern.RBool Gen.KHydIncompNp Gen.KHydIncompNb Gen.KHydCompNp Gen.KHydCompNb
  Gen.KThermNp Gen.KThermNb Gen.KPmNp Gen.KPmNb Gen.KLambdaNp Gen.KLambdaNb Gen.KDerivedNp Gen.KDerivedNb
  Gen.KGasResNp Gen.KGasResNb.
Open Scope R_scope.
From PP Require C07.ProofsTwin.

(* liquid kernel: everything entering the load vector is the same real function in both engines, for ALL inputs *)
Theorem twin_residuals_equal_incomp :
  forall bp_AREA bp_D bp_LAMBDA bp_LENGTH bp_LOSS_COEFFICIENT bp_MDOTINIT bp_PL der_lambda height_difference p_init_i1_abs p_init_i_abs rho : R,
  hyd_incomp_np_load_vec bp_AREA bp_D bp_LAMBDA bp_LENGTH bp_LOSS_COEFFICIENT bp_MDOTINIT bp_PL der_lambda height_difference p_init_i1_abs p_init_i_abs rho = hyd_incomp_nb_load_vec bp_AREA bp_D bp_LAMBDA bp_LENGTH bp_LOSS_COEFFICIENT bp_MDOTINIT bp_PL der_lambda height_difference p_init_i1_abs p_init_i_abs rho /\
  hyd_incomp_np_load_vec_nodes_from bp_AREA bp_D bp_LAMBDA bp_LENGTH bp_LOSS_COEFFICIENT bp_MDOTINIT bp_PL der_lambda height_difference p_init_i1_abs p_init_i_abs rho = hyd_incomp_nb_load_vec_nodes_from bp_AREA bp_D bp_LAMBDA bp_LENGTH bp_LOSS_COEFFICIENT bp_MDOTINIT bp_PL der_lambda height_difference p_init_i1_abs p_init_i_abs rho /\
  hyd_incomp_np_load_vec_nodes_to bp_AREA bp_D bp_LAMBDA bp_LENGTH bp_LOSS_COEFFICIENT bp_MDOTINIT bp_PL der_lambda height_difference p_init_i1_abs p_init_i_abs rho = hyd_incomp_nb_load_vec_nodes_to bp_AREA bp_D bp_LAMBDA bp_LENGTH bp_LOSS_COEFFICIENT bp_MDOTINIT bp_PL der_lambda height_difference p_init_i1_abs p_init_i_abs rho /\
  hyd_incomp_np_dp_frict_loss bp_AREA bp_D bp_LAMBDA bp_LENGTH bp_LOSS_COEFFICIENT bp_MDOTINIT bp_PL der_lambda height_difference p_init_i1_abs p_init_i_abs rho = hyd_incomp_nb_dp_frict_loss bp_AREA bp_D bp_LAMBDA bp_LENGTH bp_LOSS_COEFFICIENT bp_MDOTINIT bp_PL der_lambda height_difference p_init_i1_abs p_init_i_abs rho.
Proof.
  intros. unfold hyd_incomp_np_load_vec, hyd_incomp_nb_load_vec, hyd_incomp_np_load_vec_nodes_from, hyd_incomp_nb_load_vec_nodes_from,
    hyd_incomp_np_load_vec_nodes_to, hyd_incomp_nb_load_vec_nodes_to, hyd_incomp_np_dp_frict_loss, hyd_incomp_nb_dp_frict_loss.
  cbv zeta. repeat split; ring_atoms.
Qed.
Print Assumptions twin_residuals_equal_incomp.

(* liquid kernel: all four Jacobian outputs agree for ALL inputs (the regularisation max(|m|,1e-8) is in both) *)
Theorem twin_jacobians_equal_incomp :
  forall bp_AREA bp_D bp_LAMBDA bp_LENGTH bp_LOSS_COEFFICIENT bp_MDOTINIT bp_PL der_lambda height_difference p_init_i1_abs p_init_i_abs rho : R,
  hyd_incomp_np_df_dm bp_AREA bp_D bp_LAMBDA bp_LENGTH bp_LOSS_COEFFICIENT bp_MDOTINIT bp_PL der_lambda height_difference p_init_i1_abs p_init_i_abs rho = hyd_incomp_nb_df_dm bp_AREA bp_D bp_LAMBDA bp_LENGTH bp_LOSS_COEFFICIENT bp_MDOTINIT bp_PL der_lambda height_difference p_init_i1_abs p_init_i_abs rho /\
  hyd_incomp_np_df_dm_nodes bp_AREA bp_D bp_LAMBDA bp_LENGTH bp_LOSS_COEFFICIENT bp_MDOTINIT bp_PL der_lambda height_difference p_init_i1_abs p_init_i_abs rho = hyd_incomp_nb_df_dm_nodes bp_AREA bp_D bp_LAMBDA bp_LENGTH bp_LOSS_COEFFICIENT bp_MDOTINIT bp_PL der_lambda height_difference p_init_i1_abs p_init_i_abs rho /\
  hyd_incomp_np_df_dp bp_AREA bp_D bp_LAMBDA bp_LENGTH bp_LOSS_COEFFICIENT bp_MDOTINIT bp_PL der_lambda height_difference p_init_i1_abs p_init_i_abs rho = hyd_incomp_nb_df_dp bp_AREA bp_D bp_LAMBDA bp_LENGTH bp_LOSS_COEFFICIENT bp_MDOTINIT bp_PL der_lambda height_difference p_init_i1_abs p_init_i_abs rho /\
  hyd_incomp_np_df_dp1 bp_AREA bp_D bp_LAMBDA bp_LENGTH bp_LOSS_COEFFICIENT bp_MDOTINIT bp_PL der_lambda height_difference p_init_i1_abs p_init_i_abs rho = hyd_incomp_nb_df_dp1 bp_AREA bp_D bp_LAMBDA bp_LENGTH bp_LOSS_COEFFICIENT bp_MDOTINIT bp_PL der_lambda height_difference p_init_i1_abs p_init_i_abs rho.
Proof.
  intros. unfold hyd_incomp_np_df_dm, hyd_incomp_nb_df_dm, hyd_incomp_np_df_dm_nodes, hyd_incomp_nb_df_dm_nodes,
    hyd_incomp_np_df_dp, hyd_incomp_nb_df_dp, hyd_incomp_np_df_dp1, hyd_incomp_nb_df_dp1.
  cbv zeta. repeat split; ring_atoms.
Qed.
Print Assumptions twin_jacobians_equal_incomp.

(* gas kernel: load-vector outputs agree for ALL inputs *)
Theorem twin_residuals_equal_comp :
  forall bp_AREA bp_D bp_LENGTH bp_LOSS_COEFFICIENT bp_MDOTINIT bp_PL bp_TOUTINIT comp_fact der_comp der_comp1 der_lambda height_difference lambda_ np_from_TINIT p_init_i1_abs p_init_i_abs rho rho_n : R,
  hyd_comp_np_load_vec bp_AREA bp_D bp_LENGTH bp_LOSS_COEFFICIENT bp_MDOTINIT bp_PL bp_TOUTINIT comp_fact der_comp der_comp1 der_lambda height_difference lambda_ np_from_TINIT p_init_i1_abs p_init_i_abs rho rho_n = hyd_comp_nb_load_vec bp_AREA bp_D bp_LENGTH bp_LOSS_COEFFICIENT bp_MDOTINIT bp_PL bp_TOUTINIT comp_fact der_comp der_comp1 der_lambda height_difference lambda_ np_from_TINIT p_init_i1_abs p_init_i_abs rho rho_n /\
  hyd_comp_np_load_vec_nodes_from bp_AREA bp_D bp_LENGTH bp_LOSS_COEFFICIENT bp_MDOTINIT bp_PL bp_TOUTINIT comp_fact der_comp der_comp1 der_lambda height_difference lambda_ np_from_TINIT p_init_i1_abs p_init_i_abs rho rho_n = hyd_comp_nb_load_vec_nodes_from bp_AREA bp_D bp_LENGTH bp_LOSS_COEFFICIENT bp_MDOTINIT bp_PL bp_TOUTINIT comp_fact der_comp der_comp1 der_lambda height_difference lambda_ np_from_TINIT p_init_i1_abs p_init_i_abs rho rho_n /\
  hyd_comp_np_load_vec_nodes_to bp_AREA bp_D bp_LENGTH bp_LOSS_COEFFICIENT bp_MDOTINIT bp_PL bp_TOUTINIT comp_fact der_comp der_comp1 der_lambda height_difference lambda_ np_from_TINIT p_init_i1_abs p_init_i_abs rho rho_n = hyd_comp_nb_load_vec_nodes_to bp_AREA bp_D bp_LENGTH bp_LOSS_COEFFICIENT bp_MDOTINIT bp_PL bp_TOUTINIT comp_fact der_comp der_comp1 der_lambda height_difference lambda_ np_from_TINIT p_init_i1_abs p_init_i_abs rho rho_n /\
  hyd_comp_np_dp_frict_loss bp_AREA bp_D bp_LENGTH bp_LOSS_COEFFICIENT bp_MDOTINIT bp_PL bp_TOUTINIT comp_fact der_comp der_comp1 der_lambda height_difference lambda_ np_from_TINIT p_init_i1_abs p_init_i_abs rho rho_n = hyd_comp_nb_dp_frict_loss bp_AREA bp_D bp_LENGTH bp_LOSS_COEFFICIENT bp_MDOTINIT bp_PL bp_TOUTINIT comp_fact der_comp der_comp1 der_lambda height_difference lambda_ np_from_TINIT p_init_i1_abs p_init_i_abs rho rho_n.
Proof.
  intros. unfold hyd_comp_np_load_vec, hyd_comp_nb_load_vec, hyd_comp_np_load_vec_nodes_from, hyd_comp_nb_load_vec_nodes_from,
    hyd_comp_np_load_vec_nodes_to, hyd_comp_nb_load_vec_nodes_to, hyd_comp_np_dp_frict_loss, hyd_comp_nb_dp_frict_loss.
  cbv zeta. repeat split; ring_atoms.
Qed.
Print Assumptions twin_residuals_equal_comp.

(* gas kernel: df_dp, df_dp1, df_dm_nodes agree for ALL inputs; df_dm agrees whenever |m| > 1e-8 (named exception below) *)
Theorem twin_jacobians_equal_comp_partial :
  forall bp_AREA bp_D bp_LENGTH bp_LOSS_COEFFICIENT bp_MDOTINIT bp_PL bp_TOUTINIT comp_fact der_comp der_comp1 der_lambda height_difference lambda_ np_from_TINIT p_init_i1_abs p_init_i_abs rho rho_n : R,
  hyd_comp_np_df_dm_nodes bp_AREA bp_D bp_LENGTH bp_LOSS_COEFFICIENT bp_MDOTINIT bp_PL bp_TOUTINIT comp_fact der_comp der_comp1 der_lambda height_difference lambda_ np_from_TINIT p_init_i1_abs p_init_i_abs rho rho_n = hyd_comp_nb_df_dm_nodes bp_AREA bp_D bp_LENGTH bp_LOSS_COEFFICIENT bp_MDOTINIT bp_PL bp_TOUTINIT comp_fact der_comp der_comp1 der_lambda height_difference lambda_ np_from_TINIT p_init_i1_abs p_init_i_abs rho rho_n /\
  hyd_comp_np_df_dp bp_AREA bp_D bp_LENGTH bp_LOSS_COEFFICIENT bp_MDOTINIT bp_PL bp_TOUTINIT comp_fact der_comp der_comp1 der_lambda height_difference lambda_ np_from_TINIT p_init_i1_abs p_init_i_abs rho rho_n = hyd_comp_nb_df_dp bp_AREA bp_D bp_LENGTH bp_LOSS_COEFFICIENT bp_MDOTINIT bp_PL bp_TOUTINIT comp_fact der_comp der_comp1 der_lambda height_difference lambda_ np_from_TINIT p_init_i1_abs p_init_i_abs rho rho_n /\
  hyd_comp_np_df_dp1 bp_AREA bp_D bp_LENGTH bp_LOSS_COEFFICIENT bp_MDOTINIT bp_PL bp_TOUTINIT comp_fact der_comp der_comp1 der_lambda height_difference lambda_ np_from_TINIT p_init_i1_abs p_init_i_abs rho rho_n = hyd_comp_nb_df_dp1 bp_AREA bp_D bp_LENGTH bp_LOSS_COEFFICIENT bp_MDOTINIT bp_PL bp_TOUTINIT comp_fact der_comp der_comp1 der_lambda height_difference lambda_ np_from_TINIT p_init_i1_abs p_init_i_abs rho rho_n /\
  (1 / 100000000 < Rabs bp_MDOTINIT ->
   hyd_comp_np_df_dm bp_AREA bp_D bp_LENGTH bp_LOSS_COEFFICIENT bp_MDOTINIT bp_PL bp_TOUTINIT comp_fact der_comp der_comp1 der_lambda height_difference lambda_ np_from_TINIT p_init_i1_abs p_init_i_abs rho rho_n = hyd_comp_nb_df_dm bp_AREA bp_D bp_LENGTH bp_LOSS_COEFFICIENT bp_MDOTINIT bp_PL bp_TOUTINIT comp_fact der_comp der_comp1 der_lambda height_difference lambda_ np_from_TINIT p_init_i1_abs p_init_i_abs rho rho_n).
Proof.
  intros. unfold hyd_comp_np_df_dm, hyd_comp_nb_df_dm, hyd_comp_np_df_dm_nodes, hyd_comp_nb_df_dm_nodes,
    hyd_comp_np_df_dp, hyd_comp_nb_df_dp, hyd_comp_np_df_dp1, hyd_comp_nb_df_dp1.
  cbv zeta. split; [ring_atoms | split; [ring_atoms | split; [ring_atoms |]]].
  intros Hm. rewrite Rabs_Rabsolu. destruct (Rleb_spec (Rabs bp_MDOTINIT) (1 / 100000000)); [lra | ring_atoms].
Qed.
Print Assumptions twin_jacobians_equal_comp_partial.

(* the named exception: at |m| <= 1e-8 numpy overwrites df_dm by 1, numba keeps the regularised derivative (m_abs_deriv = 1e-8).
   4053 / 4000 is NORMAL_PRESSURE = 1.01325 and 27315000 is NORMAL_TEMPERATURE * P_CONVERSION = 273.15 * 1e5 of constants.py,
   as the translator inlines them *)
Theorem twin_comp_df_dm_exception :
  forall bp_AREA bp_D bp_LENGTH bp_LOSS_COEFFICIENT bp_MDOTINIT bp_PL bp_TOUTINIT comp_fact der_comp der_comp1 der_lambda height_difference lambda_ np_from_TINIT p_init_i1_abs p_init_i_abs rho rho_n : R,
  Rabs bp_MDOTINIT <= 1 / 100000000 ->
  hyd_comp_np_df_dm bp_AREA bp_D bp_LENGTH bp_LOSS_COEFFICIENT bp_MDOTINIT bp_PL bp_TOUTINIT comp_fact der_comp der_comp1 der_lambda height_difference lambda_ np_from_TINIT p_init_i1_abs p_init_i_abs rho rho_n = 1 /\
  hyd_comp_nb_df_dm bp_AREA bp_D bp_LENGTH bp_LOSS_COEFFICIENT bp_MDOTINIT bp_PL bp_TOUTINIT comp_fact der_comp der_comp1 der_lambda height_difference lambda_ np_from_TINIT p_init_i1_abs p_init_i_abs rho rho_n =
    - ((4053 / 4000) / (27315000 * rho_n * bp_AREA ^ 2)) * comp_fact * (1 / (p_init_i_abs + p_init_i1_abs))
      * ((np_from_TINIT + bp_TOUTINIT) / 2)
      * (2 * (1 / 100000000) * (lambda_ * bp_LENGTH / bp_D + bp_LOSS_COEFFICIENT)
         + der_lambda * bp_LENGTH * (bp_MDOTINIT * Rabs bp_MDOTINIT) / bp_D).
Proof.
  intros until rho_n. intros Hm. unfold hyd_comp_np_df_dm, hyd_comp_nb_df_dm. cbv zeta. split.
  - rewrite Rabs_Rabsolu. destruct (Rleb_spec (Rabs bp_MDOTINIT) (1 / 100000000)); [reflexivity | lra].
  - rewrite (Rmax_right (Rabs bp_MDOTINIT) (1 / 100000000)) by exact Hm. ring_atoms.
Qed.
Print Assumptions twin_comp_df_dm_exception.

(* ... and the two values really differ there (witness: m = 0, all other inputs 1) *)
Theorem twin_comp_df_dm_refuted :
  exists bp_AREA bp_D bp_LENGTH bp_LOSS_COEFFICIENT bp_MDOTINIT bp_PL bp_TOUTINIT comp_fact der_comp der_comp1 der_lambda height_difference lambda_ np_from_TINIT p_init_i1_abs p_init_i_abs rho rho_n : R,
  hyd_comp_np_df_dm bp_AREA bp_D bp_LENGTH bp_LOSS_COEFFICIENT bp_MDOTINIT bp_PL bp_TOUTINIT comp_fact der_comp der_comp1 der_lambda height_difference lambda_ np_from_TINIT p_init_i1_abs p_init_i_abs rho rho_n <> hyd_comp_nb_df_dm bp_AREA bp_D bp_LENGTH bp_LOSS_COEFFICIENT bp_MDOTINIT bp_PL bp_TOUTINIT comp_fact der_comp der_comp1 der_lambda height_difference lambda_ np_from_TINIT p_init_i1_abs p_init_i_abs rho rho_n.
Proof.
  exists 1, 1, 1, 1, 0, 1, 1, 1, 1, 1, 1, 1, 1, 1, 1, 1, 1, 1.
  unfold hyd_comp_np_df_dm, hyd_comp_nb_df_dm. cbv zeta. rewrite Rabs_Rabsolu, Rabs_R0.
  destruct (Rleb_spec 0 (1 / 100000000)); [| lra].
  rewrite (Rmax_right 0 (1 / 100000000)) by lra. lra.
Qed.
Print Assumptions twin_comp_df_dm_refuted.

(* thermal kernels (steady state): node residual / derivative, branch residual / derivatives and the flow flag agree for ALL inputs *)
Theorem twin_thermal_equal :
  forall (amb bp_ALPHA bp_DO bp_LENGTH bp_MDOTINIT bp_QEXT bp_TEXT bp_TL cp_b cp_n : R) (nodes_flow : bool) (t_init_i t_init_i1 t_init_n t_init_nt : R),
  therm_np_fn amb bp_ALPHA bp_DO bp_LENGTH bp_MDOTINIT bp_QEXT bp_TEXT bp_TL cp_b cp_n nodes_flow t_init_i t_init_i1 t_init_n t_init_nt = therm_nb_fn amb bp_ALPHA bp_DO bp_LENGTH bp_MDOTINIT bp_QEXT bp_TEXT bp_TL cp_b cp_n nodes_flow t_init_i t_init_i1 t_init_n t_init_nt /\
  therm_np_dfn_dt amb bp_ALPHA bp_DO bp_LENGTH bp_MDOTINIT bp_QEXT bp_TEXT bp_TL cp_b cp_n nodes_flow t_init_i t_init_i1 t_init_n t_init_nt = therm_nb_dfn_dt amb bp_ALPHA bp_DO bp_LENGTH bp_MDOTINIT bp_QEXT bp_TEXT bp_TL cp_b cp_n nodes_flow t_init_i t_init_i1 t_init_n t_init_nt /\
  therm_np_fb amb bp_ALPHA bp_DO bp_LENGTH bp_MDOTINIT bp_QEXT bp_TEXT bp_TL cp_b cp_n nodes_flow t_init_i t_init_i1 t_init_n t_init_nt = therm_nb_fb amb bp_ALPHA bp_DO bp_LENGTH bp_MDOTINIT bp_QEXT bp_TEXT bp_TL cp_b cp_n nodes_flow t_init_i t_init_i1 t_init_n t_init_nt /\
  therm_np_dfb_dt amb bp_ALPHA bp_DO bp_LENGTH bp_MDOTINIT bp_QEXT bp_TEXT bp_TL cp_b cp_n nodes_flow t_init_i t_init_i1 t_init_n t_init_nt = therm_nb_dfb_dt amb bp_ALPHA bp_DO bp_LENGTH bp_MDOTINIT bp_QEXT bp_TEXT bp_TL cp_b cp_n nodes_flow t_init_i t_init_i1 t_init_n t_init_nt /\
  therm_np_dfb_dtout amb bp_ALPHA bp_DO bp_LENGTH bp_MDOTINIT bp_QEXT bp_TEXT bp_TL cp_b cp_n nodes_flow t_init_i t_init_i1 t_init_n t_init_nt = therm_nb_dfb_dtout amb bp_ALPHA bp_DO bp_LENGTH bp_MDOTINIT bp_QEXT bp_TEXT bp_TL cp_b cp_n nodes_flow t_init_i t_init_i1 t_init_n t_init_nt /\
  branches_flow_np_flow bp_MDOTINIT = branches_flow_nb_flow bp_MDOTINIT.
Proof.
  intros. unfold therm_np_fn, therm_nb_fn, therm_np_dfn_dt, therm_nb_dfn_dt, therm_np_fb, therm_nb_fb, therm_np_dfb_dt,
    therm_nb_dfb_dt, therm_np_dfb_dtout, therm_nb_dfb_dtout, branches_flow_np_flow, branches_flow_nb_flow. cbv zeta.
  rewrite Rltb_negb_Rleb. destruct (Rleb (Rabs bp_MDOTINIT) (1 / 10000000000)), nodes_flow; simpl;
    repeat split; ring_atoms.
Qed.
Print Assumptions twin_thermal_equal.

(* thermal to-node terms: numpy zeroes them for |m| <= 1e-10, numba does not; they agree when m = 0 or |m| > 1e-10 *)
Theorem twin_thermal_node_terms_partial :
  forall (amb bp_ALPHA bp_DO bp_LENGTH bp_MDOTINIT bp_QEXT bp_TEXT bp_TL cp_b cp_n : R) (nodes_flow : bool) (t_init_i t_init_i1 t_init_n t_init_nt : R),
  bp_MDOTINIT = 0 \/ 1 / 10000000000 < Rabs bp_MDOTINIT ->
  therm_np_fnt amb bp_ALPHA bp_DO bp_LENGTH bp_MDOTINIT bp_QEXT bp_TEXT bp_TL cp_b cp_n nodes_flow t_init_i t_init_i1 t_init_n t_init_nt = therm_nb_fnt amb bp_ALPHA bp_DO bp_LENGTH bp_MDOTINIT bp_QEXT bp_TEXT bp_TL cp_b cp_n nodes_flow t_init_i t_init_i1 t_init_n t_init_nt /\
  therm_np_dfnt_dt amb bp_ALPHA bp_DO bp_LENGTH bp_MDOTINIT bp_QEXT bp_TEXT bp_TL cp_b cp_n nodes_flow t_init_i t_init_i1 t_init_n t_init_nt = therm_nb_dfnt_dt amb bp_ALPHA bp_DO bp_LENGTH bp_MDOTINIT bp_QEXT bp_TEXT bp_TL cp_b cp_n nodes_flow t_init_i t_init_i1 t_init_n t_init_nt /\
  therm_np_dfnt_dtout amb bp_ALPHA bp_DO bp_LENGTH bp_MDOTINIT bp_QEXT bp_TEXT bp_TL cp_b cp_n nodes_flow t_init_i t_init_i1 t_init_n t_init_nt = therm_nb_dfnt_dtout amb bp_ALPHA bp_DO bp_LENGTH bp_MDOTINIT bp_QEXT bp_TEXT bp_TL cp_b cp_n nodes_flow t_init_i t_init_i1 t_init_n t_init_nt.
Proof.
  intros until t_init_nt. intros Hm. unfold therm_np_fnt, therm_nb_fnt, therm_np_dfnt_dt, therm_nb_dfnt_dt, therm_np_dfnt_dtout, therm_nb_dfnt_dtout. cbv zeta.
  destruct (Rleb_spec (Rabs bp_MDOTINIT) (1 / 10000000000)) as [Hle | Hgt]; simpl.
  - destruct Hm as [Hz | Hm]; [| lra]. subst bp_MDOTINIT. rewrite Rabs_R0. repeat split; ring.
  - repeat split; ring.
Qed.
Print Assumptions twin_thermal_node_terms_partial.

(* ... and they differ for 0 < |m| <= 1e-10 (witness m = 1e-10, cp = 1, T_out - T_node = 1) *)
Theorem twin_thermal_node_terms_refuted :
  exists amb bp_ALPHA bp_DO bp_LENGTH bp_MDOTINIT bp_QEXT bp_TEXT bp_TL cp_b cp_n : R, exists nodes_flow : bool, exists t_init_i t_init_i1 t_init_n t_init_nt : R,
  therm_np_fnt amb bp_ALPHA bp_DO bp_LENGTH bp_MDOTINIT bp_QEXT bp_TEXT bp_TL cp_b cp_n nodes_flow t_init_i t_init_i1 t_init_n t_init_nt <> therm_nb_fnt amb bp_ALPHA bp_DO bp_LENGTH bp_MDOTINIT bp_QEXT bp_TEXT bp_TL cp_b cp_n nodes_flow t_init_i t_init_i1 t_init_n t_init_nt.
Proof.
  exists 0, 0, 0, 0, (1 / 10000000000), 0, 0, 0, 1, 1, true, 0, 1, 0, 0.
  unfold therm_np_fnt, therm_nb_fnt. cbv zeta.
  rewrite (Rabs_right (1 / 10000000000)) by lra.
  destruct (Rleb_spec (1 / 10000000000) (1 / 10000000000)); [| lra]. simpl. lra.
Qed.
Print Assumptions twin_thermal_node_terms_refuted.

(* friction-factor kernels (liquid and gas form): Re, laminar part (threshold |Re| > 1e-8 on both sides) and Nikuradse part agree for ALL inputs *)
Theorem twin_lambda_equal :
  forall area d eta k m : R,
  lambda_incomp_np_re area d eta k m = lambda_incomp_nb_re area d eta k m /\
  lambda_incomp_np_lambda_laminar area d eta k m = lambda_incomp_nb_lambda_laminar area d eta k m /\
  lambda_incomp_np_lambda_nikuradse area d eta k m = lambda_incomp_nb_lambda_nikuradse area d eta k m /\
  lambda_comp_np_re area d eta k m = lambda_comp_nb_re area d eta k m /\
  lambda_comp_np_lambda_laminar area d eta k m = lambda_comp_nb_lambda_laminar area d eta k m /\
  lambda_comp_np_lambda_nikuradse area d eta k m = lambda_comp_nb_lambda_nikuradse area d eta k m.
Proof.
  intros. unfold lambda_incomp_np_re, lambda_incomp_nb_re, lambda_incomp_np_lambda_laminar, lambda_incomp_nb_lambda_laminar,
    lambda_incomp_np_lambda_nikuradse, lambda_incomp_nb_lambda_nikuradse, lambda_comp_np_re, lambda_comp_nb_re,
    lambda_comp_np_lambda_laminar, lambda_comp_nb_lambda_laminar, lambda_comp_np_lambda_nikuradse, lambda_comp_nb_lambda_nikuradse.
  cbv zeta. split; [ring_atoms | split; [| split; [ring_atoms | split; [ring_atoms | split; [| ring_atoms]]]]];
    same_atoms; rewrite Rltb_negb_Rleb; destruct (Rleb _ _); simpl; ring.
Qed.
Print Assumptions twin_lambda_equal.

(* mean pressure and its derivatives agree for ALL inputs (equal end pressures included) *)
Theorem twin_medium_pressure_equal :
  forall p_init_i1_abs p_init_i_abs : R,
  pm_np_p_m p_init_i1_abs p_init_i_abs = pm_nb_p_m p_init_i1_abs p_init_i_abs /\
  pm_np_der_p_m p_init_i1_abs p_init_i_abs = pm_nb_der_p_m p_init_i1_abs p_init_i_abs /\
  pm_np_der_p_m1 p_init_i1_abs p_init_i_abs = pm_nb_der_p_m1 p_init_i1_abs p_init_i_abs.
Proof.
  intros. unfold pm_np_p_m, pm_nb_p_m, pm_np_der_p_m, pm_nb_der_p_m, pm_np_der_p_m1, pm_nb_der_p_m1. cbv zeta.
  destruct (Reqb p_init_i_abs p_init_i1_abs); simpl; repeat split; ring_atoms.
Qed.
Print Assumptions twin_medium_pressure_equal.

(* derived values (mean T, height difference, absolute end pressures) agree for ALL inputs *)
Theorem twin_derived_values_equal :
  forall np_from_HEIGHT np_from_PAMB np_from_PINIT np_from_TINIT np_to_HEIGHT np_to_PAMB np_to_PINIT np_to_TINIT : R,
  derived_np_tinit_branch np_from_HEIGHT np_from_PAMB np_from_PINIT np_from_TINIT np_to_HEIGHT np_to_PAMB np_to_PINIT np_to_TINIT = derived_nb_tinit_branch np_from_HEIGHT np_from_PAMB np_from_PINIT np_from_TINIT np_to_HEIGHT np_to_PAMB np_to_PINIT np_to_TINIT /\
  derived_np_height_difference np_from_HEIGHT np_from_PAMB np_from_PINIT np_from_TINIT np_to_HEIGHT np_to_PAMB np_to_PINIT np_to_TINIT = derived_nb_height_difference np_from_HEIGHT np_from_PAMB np_from_PINIT np_from_TINIT np_to_HEIGHT np_to_PAMB np_to_PINIT np_to_TINIT /\
  derived_np_p_init_i_abs np_from_HEIGHT np_from_PAMB np_from_PINIT np_from_TINIT np_to_HEIGHT np_to_PAMB np_to_PINIT np_to_TINIT = derived_nb_p_init_i_abs np_from_HEIGHT np_from_PAMB np_from_PINIT np_from_TINIT np_to_HEIGHT np_to_PAMB np_to_PINIT np_to_TINIT /\
  derived_np_p_init_i1_abs np_from_HEIGHT np_from_PAMB np_from_PINIT np_from_TINIT np_to_HEIGHT np_to_PAMB np_to_PINIT np_to_TINIT = derived_nb_p_init_i1_abs np_from_HEIGHT np_from_PAMB np_from_PINIT np_from_TINIT np_to_HEIGHT np_to_PAMB np_to_PINIT np_to_TINIT.
Proof.
  intros. unfold derived_np_tinit_branch, derived_nb_tinit_branch, derived_np_height_difference, derived_nb_height_difference,
    derived_np_p_init_i_abs, derived_nb_p_init_i_abs, derived_np_p_init_i1_abs, derived_nb_p_init_i1_abs.
  cbv zeta. unfold Rdiv. repeat split; ring.
Qed.
Print Assumptions twin_derived_values_equal.

(* reported absolute pressures: p_abs_from/to always; p_abs_mean (symmetric form 2/3 (a^2+ab+b^2)/(a+b) vs 2(a^2+ab+b^2)/(3(a+b)), no mask since /repo c6a5196) when p_from_abs + p_to_abs <> 0 *)
Theorem twin_gas_pressures_equal :
  forall (bp_FROM_NODE_T_SWITCHED bp_TOUTINIT : R) (fl_compressibility : R -> R -> R) (np_from_PAMB np_from_TINIT np_to_PAMB np_to_TINIT p_from p_to v_mps : R),
  gasres_np_p_abs_from bp_FROM_NODE_T_SWITCHED bp_TOUTINIT fl_compressibility np_from_PAMB np_from_TINIT np_to_PAMB np_to_TINIT p_from p_to v_mps = gaspress_nb_p_abs_from np_from_PAMB np_to_PAMB p_from p_to /\
  gasres_np_p_abs_to bp_FROM_NODE_T_SWITCHED bp_TOUTINIT fl_compressibility np_from_PAMB np_from_TINIT np_to_PAMB np_to_TINIT p_from p_to v_mps = gaspress_nb_p_abs_to np_from_PAMB np_to_PAMB p_from p_to /\
  ((np_from_PAMB + p_from) + (np_to_PAMB + p_to) <> 0 ->
   gasres_np_p_abs_mean bp_FROM_NODE_T_SWITCHED bp_TOUTINIT fl_compressibility np_from_PAMB np_from_TINIT np_to_PAMB np_to_TINIT p_from p_to v_mps = gaspress_nb_p_abs_mean np_from_PAMB np_to_PAMB p_from p_to).
Proof.
  intros. split; [| split; [| apply C07.ProofsTwin.gas_p_abs_mean_twin]].
  - unfold gasres_np_p_abs_from, gaspress_nb_p_abs_from. cbv zeta. ring.
  - unfold gasres_np_p_abs_to, gaspress_nb_p_abs_to. cbv zeta. ring.
Qed.
Print Assumptions twin_gas_pressures_equal.

(* the reported mean pressure (symmetric form, both engines) is the mean of the quadratic pressure profile in EVERY case *)
Theorem pm_symmetric_form :
  forall (bp_FROM_NODE_T_SWITCHED bp_TOUTINIT : R) (fl_compressibility : R -> R -> R) (np_from_PAMB np_from_TINIT np_to_PAMB np_to_TINIT p_from p_to v_mps : R),
  let a := np_from_PAMB + p_from in let b := np_to_PAMB + p_to in
  a + b <> 0 ->
  (a <> b -> gasres_np_p_abs_mean bp_FROM_NODE_T_SWITCHED bp_TOUTINIT fl_compressibility np_from_PAMB np_from_TINIT np_to_PAMB np_to_TINIT p_from p_to v_mps = 2 / 3 * (a ^ 3 - b ^ 3) / (a ^ 2 - b ^ 2)) /\
  (a = b -> gasres_np_p_abs_mean bp_FROM_NODE_T_SWITCHED bp_TOUTINIT fl_compressibility np_from_PAMB np_from_TINIT np_to_PAMB np_to_TINIT p_from p_to v_mps = a).
Proof.
  intros until v_mps. intros a b Hs.
  (* the kernel's expression in a and b, whatever the order of its operands; the rest is about a and b alone *)
  replace (gasres_np_p_abs_mean _ _ _ _ _ _ _ _ _ _) with (2 / 3 * (a ^ 2 + a * b + b ^ 2) / (a + b))
    by (unfold gasres_np_p_abs_mean, a, b; cbv zeta; ring_atoms).
  split.
  - intros Hne. assert (Hd : a - b <> 0) by lra.
    assert (Hq : a ^ 2 - b ^ 2 <> 0).
    { replace (a ^ 2 - b ^ 2) with ((a - b) * (a + b)) by ring. apply Rmult_integral_contrapositive_currified; assumption. }
    field. split; [exact Hq | exact Hs].
  - intros E. rewrite <- E in *. field. lra.
Qed.
Print Assumptions pm_symmetric_form.

(* norm factors and gas velocities: the numba wrapper (pressures -> compressibility at the direction-corrected inlet temperature tf -> get_gas_vel_numba) equals the numpy function, direction-switched branches included (since /repo bfae2a5 the wrapper passes tf to get_gas_vel_numba) *)
Theorem twin_gas_normfactors_equal :
  forall (bp_FROM_NODE_T_SWITCHED bp_TOUTINIT : R) (fl_compressibility : R -> R -> R) (np_from_PAMB np_from_TINIT np_to_PAMB np_to_TINIT p_from p_to v_mps : R),
  (np_from_PAMB + p_from) + (np_to_PAMB + p_to) <> 0 ->
  let tf := (if negb (Reqb bp_FROM_NODE_T_SWITCHED 0) then np_to_TINIT else np_from_TINIT) in
  gasres_np_normfactor_from bp_FROM_NODE_T_SWITCHED bp_TOUTINIT fl_compressibility np_from_PAMB np_from_TINIT np_to_PAMB np_to_TINIT p_from p_to v_mps =
    gasvel_nb_normfactor_from bp_TOUTINIT
      (fl_compressibility (gaspress_nb_p_abs_from np_from_PAMB np_to_PAMB p_from p_to) tf)
      (fl_compressibility (gaspress_nb_p_abs_mean np_from_PAMB np_to_PAMB p_from p_to) ((tf + bp_TOUTINIT) / 2))
      (fl_compressibility (gaspress_nb_p_abs_to np_from_PAMB np_to_PAMB p_from p_to) bp_TOUTINIT)
      (gaspress_nb_p_abs_from np_from_PAMB np_to_PAMB p_from p_to) (gaspress_nb_p_abs_mean np_from_PAMB np_to_PAMB p_from p_to) (gaspress_nb_p_abs_to np_from_PAMB np_to_PAMB p_from p_to) tf v_mps /\
  gasres_np_normfactor_to bp_FROM_NODE_T_SWITCHED bp_TOUTINIT fl_compressibility np_from_PAMB np_from_TINIT np_to_PAMB np_to_TINIT p_from p_to v_mps =
    gasvel_nb_normfactor_to bp_TOUTINIT
      (fl_compressibility (gaspress_nb_p_abs_from np_from_PAMB np_to_PAMB p_from p_to) tf)
      (fl_compressibility (gaspress_nb_p_abs_mean np_from_PAMB np_to_PAMB p_from p_to) ((tf + bp_TOUTINIT) / 2))
      (fl_compressibility (gaspress_nb_p_abs_to np_from_PAMB np_to_PAMB p_from p_to) bp_TOUTINIT)
      (gaspress_nb_p_abs_from np_from_PAMB np_to_PAMB p_from p_to) (gaspress_nb_p_abs_mean np_from_PAMB np_to_PAMB p_from p_to) (gaspress_nb_p_abs_to np_from_PAMB np_to_PAMB p_from p_to) tf v_mps /\
  gasres_np_normfactor_mean bp_FROM_NODE_T_SWITCHED bp_TOUTINIT fl_compressibility np_from_PAMB np_from_TINIT np_to_PAMB np_to_TINIT p_from p_to v_mps =
    gasvel_nb_normfactor_mean bp_TOUTINIT
      (fl_compressibility (gaspress_nb_p_abs_from np_from_PAMB np_to_PAMB p_from p_to) tf)
      (fl_compressibility (gaspress_nb_p_abs_mean np_from_PAMB np_to_PAMB p_from p_to) ((tf + bp_TOUTINIT) / 2))
      (fl_compressibility (gaspress_nb_p_abs_to np_from_PAMB np_to_PAMB p_from p_to) bp_TOUTINIT)
      (gaspress_nb_p_abs_from np_from_PAMB np_to_PAMB p_from p_to) (gaspress_nb_p_abs_mean np_from_PAMB np_to_PAMB p_from p_to) (gaspress_nb_p_abs_to np_from_PAMB np_to_PAMB p_from p_to) tf v_mps /\
  gasres_np_v_gas_from bp_FROM_NODE_T_SWITCHED bp_TOUTINIT fl_compressibility np_from_PAMB np_from_TINIT np_to_PAMB np_to_TINIT p_from p_to v_mps =
    gasvel_nb_v_gas_from bp_TOUTINIT
      (fl_compressibility (gaspress_nb_p_abs_from np_from_PAMB np_to_PAMB p_from p_to) tf)
      (fl_compressibility (gaspress_nb_p_abs_mean np_from_PAMB np_to_PAMB p_from p_to) ((tf + bp_TOUTINIT) / 2))
      (fl_compressibility (gaspress_nb_p_abs_to np_from_PAMB np_to_PAMB p_from p_to) bp_TOUTINIT)
      (gaspress_nb_p_abs_from np_from_PAMB np_to_PAMB p_from p_to) (gaspress_nb_p_abs_mean np_from_PAMB np_to_PAMB p_from p_to) (gaspress_nb_p_abs_to np_from_PAMB np_to_PAMB p_from p_to) tf v_mps /\
  gasres_np_v_gas_to bp_FROM_NODE_T_SWITCHED bp_TOUTINIT fl_compressibility np_from_PAMB np_from_TINIT np_to_PAMB np_to_TINIT p_from p_to v_mps =
    gasvel_nb_v_gas_to bp_TOUTINIT
      (fl_compressibility (gaspress_nb_p_abs_from np_from_PAMB np_to_PAMB p_from p_to) tf)
      (fl_compressibility (gaspress_nb_p_abs_mean np_from_PAMB np_to_PAMB p_from p_to) ((tf + bp_TOUTINIT) / 2))
      (fl_compressibility (gaspress_nb_p_abs_to np_from_PAMB np_to_PAMB p_from p_to) bp_TOUTINIT)
      (gaspress_nb_p_abs_from np_from_PAMB np_to_PAMB p_from p_to) (gaspress_nb_p_abs_mean np_from_PAMB np_to_PAMB p_from p_to) (gaspress_nb_p_abs_to np_from_PAMB np_to_PAMB p_from p_to) tf v_mps /\
  gasres_np_v_gas_mean bp_FROM_NODE_T_SWITCHED bp_TOUTINIT fl_compressibility np_from_PAMB np_from_TINIT np_to_PAMB np_to_TINIT p_from p_to v_mps =
    gasvel_nb_v_gas_mean bp_TOUTINIT
      (fl_compressibility (gaspress_nb_p_abs_from np_from_PAMB np_to_PAMB p_from p_to) tf)
      (fl_compressibility (gaspress_nb_p_abs_mean np_from_PAMB np_to_PAMB p_from p_to) ((tf + bp_TOUTINIT) / 2))
      (fl_compressibility (gaspress_nb_p_abs_to np_from_PAMB np_to_PAMB p_from p_to) bp_TOUTINIT)
      (gaspress_nb_p_abs_from np_from_PAMB np_to_PAMB p_from p_to) (gaspress_nb_p_abs_mean np_from_PAMB np_to_PAMB p_from p_to) (gaspress_nb_p_abs_to np_from_PAMB np_to_PAMB p_from p_to) tf v_mps.
Proof. exact C07.ProofsTwin.twin_gas_normfactors_equal. Qed.
Print Assumptions twin_gas_normfactors_equal.

(* the hypotheses of the conditional statements are satisfiable by ordinary operating points: a flowing branch (|m| = 1/2 kg/s
   is above both masks), a branch at rest (m = 0), absolute end pressures 4.01 / 3.01 bar *)
Example twin_guards_example :
  1 / 100000000 < Rabs (1 / 2) /\ ((0 : R) = 0 \/ 1 / 10000000000 < Rabs 0) /\
  (101 / 100 + 3) + (101 / 100 + 2) <> 0.
Proof. rewrite (Rabs_right (1 / 2)) by lra. split; [lra | split; [left; reflexivity | lra]]. Qed.
