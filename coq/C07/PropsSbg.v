(* C07 - grouped sums: the numpy path (argsort + np.add.reduceat) and the numba path (bucket accumulation, with its
   size-dependent fall-back) of pandapipes.pf.internals_toolbox._sum_by_group return the same arrays.
   The model and the theorems that relate every path to the specification are C06's (PP.C06.Model / PP.C06.Proofs,
   tied to the code by the exact correspondence of check C06); this file states the consequence for the twins. *)
From Coq Require Import List ZArith Permutation Sorted Ring.
From PP Require Import C06.Model.
From PP Require C06.Proofs.
Import ListNotations.
Open Scope Z_scope.

Theorem sum_by_group_paths_equal :
  forall (A : Type) (zero one : A) (add mul sub : A -> A -> A) (opp : A -> A),
  ring_theory zero one add mul sub opp eq ->
  forall (nb1 inst1 nb2 inst2 : bool) (order1 order2 : list nat) (ks : list Z) (vs : list A),
  Permutation order1 (seq 0 (length ks)) -> Sorted Z.le (permute 0 order1 ks) ->
  Permutation order2 (seq 0 (length ks)) -> Sorted Z.le (permute 0 order2 ks) ->
  (forall k, In k ks -> 0 <= k) -> length vs = length ks ->
  sbg zero add nb1 inst1 order1 ks vs = sbg zero add nb2 inst2 order2 ks vs.
Proof.
  intros A zero one add mul sub opp Rth nb1 i1 nb2 i2 o1 o2 ks vs H1 S1 H2 S2 Hp Hl.
  rewrite (C06.Proofs.sbg_all_paths_spec zero one add mul sub opp Rth nb1 i1 o1 ks vs H1 S1 Hp Hl).
  rewrite (C06.Proofs.sbg_all_paths_spec zero one add mul sub opp Rth nb2 i2 o2 ks vs H2 S2 Hp Hl).
  reflexivity.
Qed.
Print Assumptions sum_by_group_paths_equal.
