(* C07 - graph part of the thermal twins (C07/ModelGraph.v).
   The numba loops write, for every flowing branch, a value that depends on the written position only ([true] for the club
   arrays, [negb (club_to n)] for infeed).  Such a loop leaves at n the value v n if some flowing branch has key n, and the
   initial content otherwise, which is the numpy reading (isin / setdiff1d over the flowing branches). *)
From Coq Require Import List Arith Bool.
From PP Require Import C07.ModelGraph.
Import ListNotations.

Lemma write_fold_spec (key : br -> nat) (v : nat -> bool) (l : list br) : forall (a : nat -> bool) n,
  fold_left (fun a b => if flow b then upd a (key b) (v (key b)) else a) l a n
  = if existsb (Nat.eqb n) (map key (flowing l)) then v n else a n.
Proof.
  induction l as [| b r IH]; intros a n; simpl; [reflexivity |].
  rewrite IH. unfold flowing. simpl. destruct (flow b); simpl; [| reflexivity].
  destruct (existsb (Nat.eqb n) (map key (filter flow r))); [rewrite orb_true_r; reflexivity |].
  rewrite orb_false_r. unfold upd. destruct (Nat.eqb n (key b)) eqn:E; [| reflexivity].
  apply Nat.eqb_eq in E. subst n. reflexivity.
Qed.

Lemma club_to_spec l n : club_to l n = existsb (Nat.eqb n) (map bt (flowing l)).
Proof. unfold club_to. rewrite (write_fold_spec bt (fun _ => true)). destruct (existsb _ _); reflexivity. Qed.
Lemma club_from_spec l n : club_from l n = existsb (Nat.eqb n) (map bf (flowing l)).
Proof. unfold club_from. rewrite (write_fold_spec bf (fun _ => true)). destruct (existsb _ _); reflexivity. Qed.
