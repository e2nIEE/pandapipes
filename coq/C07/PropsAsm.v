(* C07 - property theorems about the matrix-update option (model: C07/Model.v, any commutative ring). *)
From Coq Require Import List Arith Bool Permutation Ring_theory ZArith.
From PP Require Import C07.Model.
From PP Require C07.ProofsAsm.
Import ListNotations.

(* the dense matrix does not depend on the order of the triplets: any stored permutation may be reused *)
Theorem triplet_order_irrelevant :
  forall (A : Type) (zero one : A) (add mul sub : A -> A -> A) (opp : A -> A),
  ring_theory zero one add mul sub opp eq ->
  forall (p : pos) (t1 t2 : list (pos * A)), Permutation t1 t2 -> entry zero add p t1 = entry zero add p t2.
Proof. intros A zero one add mul sub opp Rth. exact (C07.ProofsAsm.entry_perm zero add (C07.ProofsAsm.ring_add_lcomm Rth)). Qed.
Print Assumptions triplet_order_irrelevant.

(* update path = fresh assembly: for ANY triplet list (duplicate positions included - they are summed on both paths),
   ANY new data and ANY stored data_order that is a permutation.  The stored structure ps[ord] is a function of the
   positions only, so changing loads between reusing calls is covered. *)
Theorem update_only_correct :
  forall (A : Type) (zero one : A) (add mul sub : A -> A -> A) (opp : A -> A),
  ring_theory zero one add mul sub opp eq ->
  forall (ord : list nat) (ps : list pos) (data' : list A),
  Permutation ord (seq 0 (length ps)) -> length data' = length ps ->
  forall p, entry zero add p (update zero ord ps data') = entry zero add p (fresh ps data').
Proof. intros A zero one add mul sub opp Rth. exact (C07.ProofsAsm.entry_update zero add (C07.ProofsAsm.ring_add_lcomm Rth)). Qed.
Print Assumptions update_only_correct.

(* why the structure must be a private copy (behaviour before /repo 33b82f8, model [update_shared]): sharing the cached
   matrix with spsolve is correct only without duplicate positions ... *)
Theorem update_shared_correct_without_duplicates :
  forall (A : Type) (zero one : A) (add mul sub : A -> A -> A) (opp : A -> A),
  ring_theory zero one add mul sub opp eq ->
  forall (ord : list nat) (ps : list pos) (data' : list A),
  Permutation ord (seq 0 (length ps)) -> length data' = length ps -> NoDup ps ->
  forall p, entry zero add p (update_shared zero ord ps data') = entry zero add p (fresh ps data').
Proof. intros A zero one add mul sub opp Rth. exact (C07.ProofsAsm.entry_update_shared zero add (C07.ProofsAsm.ring_add_lcomm Rth)). Qed.
Print Assumptions update_shared_correct_without_duplicates.

(* ... and wrong with them (a pressure controller whose controlled junction is its to junction), where today's path is right *)
Theorem update_shared_refuted_with_duplicates :
  exists (ord : list nat) (ps : list pos) (data' : list Z) (p : pos),
  Permutation ord (seq 0 (length ps)) /\ length data' = length ps /\
  entry 0%Z Z.add p (update_shared 0%Z ord ps data') <> entry 0%Z Z.add p (fresh ps data') /\
  entry 0%Z Z.add p (update 0%Z ord ps data') = entry 0%Z Z.add p (fresh ps data').
Proof.
  (* the PC row holds df_dp1 = 0 and the fixed-pressure 1 at the same (row, col) = (0, 1); one more row follows, whose
     entry (1, 0) receives the data shifted by the merged slot *)
  exists [0; 1; 2], [(0, 1); (0, 1); (1, 0)], [0; 1; 5]%Z, (1, 0).
  split; [apply Permutation_refl | split; [reflexivity | split; [vm_compute; discriminate | reflexivity]]].
Qed.
Print Assumptions update_shared_refuted_with_duplicates.

Example guard_satisfiable :
  NoDup [(2, 2); (2, 0); (2, 1); (0, 2); (1, 2)] /\ Permutation [3; 4; 1; 2; 0] (seq 0 5).
Proof.
  split.
  - repeat constructor; simpl; intuition discriminate.
  - apply NoDup_Permutation_bis; [repeat constructor; simpl; intuition discriminate | reflexivity |].
    intros x Hx. simpl in *. intuition.
Qed.
