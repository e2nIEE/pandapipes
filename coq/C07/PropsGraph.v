(* C07 - graph part of the thermal twins (model: C07/ModelGraph.v, tied to both real kernels by an exact correspondence
   evaluated inside Coq on generated branch lists). *)
From Coq Require Import List Arith Bool.
From PP Require Import C07.ModelGraph.
From PP Require Import C07.ProofsGraph.
Import ListNotations.

(* set-difference formulation (numpy) = flag formulation (numba) of the infeed nodes, for every branch list and node *)
Theorem infeed_twin : forall (l : list br) (n : nat), nb_infeed l n = np_infeed l n.
Proof.
  intros l n. unfold nb_infeed, np_infeed. rewrite (write_fold_spec bf (fun k => negb (club_to l k))), club_to_spec.
  destruct (existsb (Nat.eqb n) (map bf (flowing l))); reflexivity.
Qed.
Print Assumptions infeed_twin.

(* np.isin over the concatenated end nodes = club_from | club_to *)
Theorem nodes_flow_twin : forall (l : list br) (n : nat), nb_nodes_flow l n = np_nodes_flow l n.
Proof.
  intros l n. unfold nb_nodes_flow, np_nodes_flow. rewrite club_from_spec, club_to_spec, existsb_app. reflexivity.
Qed.
Print Assumptions nodes_flow_twin.

(* a non-trivial instance: parallel branches, a non-flowing branch, a loop; node 0 and node 4 feed in *)
Example infeed_example :
  let l := [ {| bf := 0; bt := 1; flow := true |}; {| bf := 0; bt := 1; flow := true |}; {| bf := 1; bt := 2; flow := true |};
             {| bf := 2; bt := 1; flow := true |}; {| bf := 3; bt := 2; flow := false |}; {| bf := 4; bt := 2; flow := true |} ] in
  tab (nb_infeed l) 5 = [true; false; false; false; true] /\ tab (np_nodes_flow l) 5 = [true; true; true; false; true].
Proof. split; reflexivity. Qed.
