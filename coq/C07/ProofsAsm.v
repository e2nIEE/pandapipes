(* C07 - the matrix-update option (C07/Model.v).  The value read at a position is a sum over the triplets there, so it
   survives any reordering of the triplets as soon as the addition is commutative and associative; of a ring nothing else is
   used.  [permute] of C07/Model.v is the function of that name of C06/Model.v, so C06's lemmas on it apply as they are. *)
From Coq Require Import List Arith Bool Permutation Ring_theory.
From PP Require Import C07.Model.
From PP Require C06.Proofs.
Import ListNotations.

Lemma pos_eqb_true p q : pos_eqb p q = true <-> p = q.
Proof.
  destruct p as [a b], q as [c d]; unfold pos_eqb; simpl. rewrite andb_true_iff, !Nat.eqb_eq.
  split; [intros [-> ->]; reflexivity | intros H; inversion H; auto].
Qed.

Lemma dedup_adj_nodup ps : NoDup ps -> dedup_adj ps = ps.
Proof.
  induction ps as [| p r IH]; intros H; [reflexivity |]. inversion H as [| ? ? Hn Hr]; subst.
  simpl. destruct r as [| q r']; [reflexivity |].
  destruct (pos_eqb p q) eqn:E.
  - apply pos_eqb_true in E. subst q. exfalso. apply Hn. left. reflexivity.
  - f_equal. apply IH. exact Hr.
Qed.

Lemma ring_add_lcomm {A} {zero one : A} {add mul sub : A -> A -> A} {opp : A -> A}
  (Rth : ring_theory zero one add mul sub opp eq) : forall a b c, add a (add b c) = add b (add a c).
Proof. intros a b c. rewrite (Radd_assoc Rth), (Radd_comm Rth a b), <- (Radd_assoc Rth). reflexivity. Qed.

Section AsmProofs.
  Context {A : Type} (zero : A) (add : A -> A -> A).
  Hypothesis add_lcomm : forall a b c, add a (add b c) = add b (add a c).

  Lemma entry_perm p (t1 t2 : list (pos * A)) :
    Permutation t1 t2 -> entry zero add p t1 = entry zero add p t2.
  Proof.
    induction 1 as [| [q v] l l' _ IH | [q v] [q' v'] l | l l' l'' _ IH1 _ IH2]; simpl.
    - reflexivity.
    - rewrite IH. reflexivity.
    - destruct (pos_eqb q' p), (pos_eqb q p); try reflexivity. apply add_lcomm.
    - rewrite IH1. exact IH2.
  Qed.

  Lemma entry_update ord (ps : list pos) (data' : list A) :
    Permutation ord (seq 0 (length ps)) -> length data' = length ps ->
    forall p, entry zero add p (update zero ord ps data') = entry zero add p (fresh ps data').
  Proof.
    intros Hp Hl p. unfold update, fresh. change (@permute) with (@C06.Model.permute).
    rewrite C06.Proofs.combine_permute by exact Hl.
    apply entry_perm. apply C06.Proofs.permute_perm. rewrite combine_length, Hl, Nat.min_id. exact Hp.
  Qed.

  (* without duplicate positions spsolve's in-place sum_duplicates leaves the shared structure as it was *)
  Lemma entry_update_shared ord (ps : list pos) (data' : list A) :
    Permutation ord (seq 0 (length ps)) -> length data' = length ps -> NoDup ps ->
    forall p, entry zero add p (update_shared zero ord ps data') = entry zero add p (fresh ps data').
  Proof.
    intros Hp Hl Hn p. rewrite <- (entry_update ord ps data' Hp Hl p).
    unfold update_shared, shared_structure, update. rewrite dedup_adj_nodup; [reflexivity |].
    apply (Permutation_NoDup (l := ps)); [| exact Hn]. symmetry. apply C06.Proofs.permute_perm. exact Hp.
  Qed.
End AsmProofs.
