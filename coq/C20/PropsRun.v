(* C20 - property theorems about a whole coupled run / time series.  Conversion formulas are the
   regenerated ones (Gen/KConv.v); the time-series statement is an instance of C13.multinet_step_equals_standalone. *)
From Coq Require Import ZArith List Bool Reals Lra.
From PP Require Import C20.Model Gen.KConv C20.Proofs C20.Coupled C13.Model C13.Props.
Import ListNotations.

(* every coupling controller, whatever its kind, hands on efficiency x the power it takes *)
Theorem controller_energy_balance : forall c, cwf c -> e_out c = (ceta c * e_in c)%R.
Proof. exact controller_balance. Qed.
Print Assumptions controller_energy_balance.

(* a whole coupled run with ANY number of coupling controllers of any kinds: the power leaving the
   conversions is the efficiency-weighted power entering them; no energy is created when efficiencies are
   <= 1 and nothing is lost when they are 1 *)
Theorem coupled_run_energy_balance : forall l, Forall cwf l ->
  rsum (map e_out l) = rsum (map (fun c => (ceta c * e_in c)%R) l) /\
  (Forall (fun c => (0 <= e_in c /\ 0 <= ceta c <= 1)%R) l -> (rsum (map e_out l) <= rsum (map e_in l))%R) /\
  (Forall (fun c => ceta c = 1%R) l -> rsum (map e_out l) = rsum (map e_in l)).
Proof.
  intros l H. split; [now apply run_balance|]. split; intro; [now apply run_no_energy_created | now apply run_lossless].
Qed.
Print Assumptions coupled_run_energy_balance.

(* composed with multinet_converged_iff_all: when a level of the run is reported converged, every net it
   affected converged in its fresh calculation, every other net kept a good flag, and the balance holds for
   the controllers of the run *)
Theorem converged_run_conserves_energy : forall nets lo run old l,
  evaluate nets lo run old = true -> Forall cwf l ->
  (forall n, In n (evaluated nets lo) -> run n = true) /\
  (forall n, In n nets -> relevant lo n = false -> old n = true) /\
  rsum (map e_out l) = rsum (map (fun c => (ceta c * e_in c)%R) l).
Proof.
  intros nets lo run old l H Hw. destruct (converged_implies_fresh nets lo run old H) as [A B].
  repeat split; auto. now apply run_balance.
Qed.
Print Assumptions converged_run_conserves_energy.

(* time series: for coupling controllers without a chain inside a step (no controller reads a cell another
   one writes) and profiles that drive no written cell, for EVERY list of steps the row logged for step t is
   the stand-alone calculation of the members on  couple (U_0 [profile cells := row t])  *)
Theorem coupled_timeseries_step_is_standalone :
  forall (Rw : Type) (spec : (Z -> R) -> option Rw), (forall u u', (forall c, u c = u' c) -> spec u = spec u') ->
  forall (cells : list Z) (l : list tsc) profile,
    no_chain l = true -> profiles_free cells l = true ->
  forall cod steps u0 t r,
    In (t, r) (logged Z R Rw (mloop Z R Rw Z.eqb spec cells (couple_list l) profile cod steps u0 [])) ->
    r = spec (mstep Z R Z.eqb cells (couple_list l) profile t u0).
Proof.
  intros Rw spec Hspec cells l profile Hc Hp cod steps u0 t r Hin.
  eapply (multinet_step_equals_standalone Z R Rw Z.eqb Z.eqb_eq spec Hspec cells (ts_derived l) (ts_reads l)
            (couple_list l) profile); eauto.
  - intros u c. apply couple_frame.
  - intros u u' c. apply couple_reads.
  - now apply guard_not_in.
  - now apply guard_not_in.
Qed.
Print Assumptions coupled_timeseries_step_is_standalone.

(* non-vacuity: one controller of each kind; a P2G + G2P pair of a time series without chain *)
Example run_example :
  let l := [ {| ck := KP2G; cx := 8; cs := 1/2; ch1 := 16; ch2 := 1; ceta := 1/2 |};
             {| ck := KG2P; cx := 1/4; cs := 1; ch1 := 16; ch2 := 1; ceta := 3/4 |};
             {| ck := KG2PLed; cx := 2; cs := 1; ch1 := 16; ch2 := 1; ceta := 1/2 |};
             {| ck := KG2G; cx := 1/4; cs := 2; ch1 := 16; ch2 := 32; ceta := 1 |} ]%R in
  Forall cwf l /\ (e_out (hd (Build_coupling KP2G 0 0 1 1 1) l) = 2)%R.
Proof.
  simpl. split.
  - repeat constructor; unfold cwf; simpl; repeat split; try lra; intro; try discriminate; lra.
  - unfold e_out, cwritten, gas_power, p2g_written, conversion_factor_mw_to_kgps. simpl. field.
Qed.

Example timeseries_example :
  let l := [ {| t_r1 := 1; t_r2 := 2; t_w := 10; t_f := fun p s => p2g_written p s 16 (1/2) |};
             {| t_r1 := 11; t_r2 := 12; t_w := 3; t_f := fun m s => g2p_written m s 16 (3/4) |} ]%Z in
  no_chain l = true /\ profiles_free [1; 11]%Z l = true /\ no_chain (l ++ [ {| t_r1 := 10; t_r2 := 2; t_w := 20; t_f := fun a _ => a |} ])%Z = false.
Proof. repeat split. Qed.
