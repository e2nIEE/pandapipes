(* C20 - after_run_is_standalone for the pandapipes members of a multinet, as an instance of the C12
   history model (PP.C12): inside a coupled run / time series a member net sees a history of controller
   writes into its user tables (Edit) and calls of pipeflow (Run) - any number of control iterations, levels
   and time steps.  The calculation that produced the member's results is the last Run of that history;
   C12.history_independence says it equals the same call on a net carrying only the description as written.
   Power members (runpp) are outside the C12 model: oracle + bit-identical differential (tools/props/c20.py). *)
From Coq Require Import String List.
From PP Require Import C12.Model C12.Proofs C12.Checks Gen.Effects C12.Props.
Import ListNotations.

(* one control iteration of the coupled run as the member sees it: the cells written by coupling / own
   controllers, then the pipeflow call (configuration c, keyword arguments kw) *)
Definition member_history {V} (steps : list (list (key * V) * (cfg * V))) : list (op V) :=
  flat_map (fun st => (map (fun e => Edit (fst e) (snd e)) (fst st) ++ [Run (fst (snd st)) (snd (snd st))])%list) steps.

Theorem after_run_is_standalone :
  forall V fw fb present N undef (steps : list (list (key * V) * (cfg * V))) (last_writes : list (key * V))
         (s0 : key -> V) x kw,
  In x all_progs -> exceptions (cfg_of x) = [] ->
  let h := (member_history steps ++ map (fun e => Edit (fst e) (snd e)) last_writes)%list in
  same_result V present [] (lookup_prog all_progs (cfg_of x))
    (after V fw fb present N all_progs h s0 CL)
    (run V fw fb present N all_progs (cfg_of x) kw (after V fw fb present N all_progs h s0))
    (run V fw fb present N all_progs (cfg_of x) kw
         (blank undef (description_after V fw fb present N all_progs h s0))).
Proof. intros. apply history_independence; assumption. Qed.
Print Assumptions after_run_is_standalone.

(* and recalculating the member afterwards (what the differential does on a deep copy) changes nothing *)
Theorem standalone_rerun_is_identical : forall V fw fb present N (s0 : key -> V) x kw,
  In x all_progs -> exceptions (cfg_of x) = [] ->
  same_result V present [] (lookup_prog all_progs (cfg_of x)) (s0 CL)
    (run V fw fb present N all_progs (cfg_of x) kw s0)
    (run V fw fb present N all_progs (cfg_of x) kw
         (sigma (state_of (run V fw fb present N all_progs (cfg_of x) kw s0)))).
Proof. intros. apply repeat_is_identical; assumption. Qed.
Print Assumptions standalone_rerun_is_identical.

Example member_history_example :
  List.length (member_history [([("source", 1); ("sink", 2)], (("sequential", false, false), 0)); ([], (("sequential", false, false), 0))]%string) = 4.
Proof. reflexivity. Qed.
