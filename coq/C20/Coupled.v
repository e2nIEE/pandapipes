(* C20 - a whole coupled run: energy balance over any list of coupling controllers (composed from the
   generated per-controller formulas of Gen/KConv.v), and the coupling of a multi-energy time series as an
   instance of the C13 step model (PP.C13).  Definitions and lemmas; the theorems are in PropsRun.v. *)
From Coq Require Import ZArith List Bool Reals Lra.
From PP Require Import C20.Model Gen.KConv C20.Proofs.
Import ListNotations.

Section Energy.
Open Scope R_scope.

Inductive ckind := KP2G | KG2P | KG2PLed | KG2G.

(* one coupled element pair: the cell value read [cx], its scaling [cs], the heating value(s), efficiency *)
Record coupling := { ck : ckind; cx : R; cs : R; ch1 : R; ch2 : R; ceta : R }.

Definition cwritten (c : coupling) : R :=
  match ck c with
  | KP2G => p2g_written (cx c) (cs c) (ch1 c) (ceta c)
  | KG2P => g2p_written (cx c) (cs c) (ch1 c) (ceta c)
  | KG2PLed => g2p_power_led_written (cx c) (cs c) (ch1 c) (ceta c)
  | KG2G => g2g_written (cx c) (cs c) (ch1 c) (ch2 c) (ceta c)
  end.

(* power [MW] entering the conversion and leaving it; gas_power mdot hhv = mdot * hhv * 3600 / 1000 *)
Definition e_in (c : coupling) : R :=
  match ck c with
  | KP2G => cx c * cs c
  | KG2P => gas_power (cx c * cs c) (ch1 c)
  | KG2PLed => gas_power (cwritten c) (ch1 c)
  | KG2G => gas_power (cx c * cs c) (ch1 c)
  end.
Definition e_out (c : coupling) : R :=
  match ck c with
  | KP2G => gas_power (cwritten c) (ch1 c)
  | KG2P => cwritten c
  | KG2PLed => cx c * cs c
  | KG2G => gas_power (cwritten c) (ch2 c)
  end.

Definition cwf (c : coupling) : Prop :=
  ch1 c <> 0 /\ ch2 c <> 0 /\ (ck c = KG2PLed -> ceta c <> 0).

Fixpoint rsum (l : list R) : R := match l with [] => 0 | a :: r => a + rsum r end.

Lemma controller_balance c : cwf c -> e_out c = ceta c * e_in c.
Proof.
  intros [H1 [H2 H3]]. unfold e_out, e_in, cwritten.
  destruct (ck c); autounfold with kconv; field; auto.
Qed.

Lemma run_balance l : Forall cwf l ->
  rsum (map e_out l) = rsum (map (fun c => ceta c * e_in c) l).
Proof.
  induction 1 as [|c r Hc Hr IH]; simpl; [reflexivity|]. rewrite IH, (controller_balance c Hc). reflexivity.
Qed.

Lemma run_no_energy_created l : Forall cwf l ->
  Forall (fun c => 0 <= e_in c /\ 0 <= ceta c <= 1) l ->
  rsum (map e_out l) <= rsum (map e_in l).
Proof.
  intros Hw Hb. rewrite (run_balance l Hw). clear Hw.
  induction Hb as [|c r [Hi [He0 He1]] Hr IH]; simpl; [lra | nra].
Qed.

Lemma run_lossless l : Forall cwf l -> Forall (fun c => ceta c = 1) l ->
  rsum (map e_out l) = rsum (map e_in l).
Proof.
  intros Hw He. rewrite (run_balance l Hw). clear Hw.
  induction He as [|c r Hc Hr IH]; simpl; [reflexivity|]. rewrite IH, Hc. ring.
Qed.
End Energy.

(* a coupling controller of a time series: reads two input cells (value, scaling) of one member, writes one
   input cell of another member; cells are numbered over all member nets *)
Record tsc := { t_r1 : Z; t_r2 : Z; t_w : Z; t_f : R -> R -> R }.

Definition couple_list (l : list tsc) (u : Z -> R) : Z -> R :=
  fun c => match find (fun t => Z.eqb (t_w t) c) l with
           | Some t => t_f t (u (t_r1 t)) (u (t_r2 t))
           | None => u c
           end.

Definition ts_derived (l : list tsc) : list Z := map t_w l.
Definition ts_reads (l : list tsc) : list Z := flat_map (fun t => [t_r1 t; t_r2 t]) l.

(* no chain inside a step: no controller reads a cell another one writes; profiles drive no written cell *)
Definition no_chain (l : list tsc) : bool :=
  forallb (fun r => negb (existsb (Z.eqb r) (ts_derived l))) (ts_reads l).
Definition profiles_free (cells : list Z) (l : list tsc) : bool :=
  forallb (fun c => negb (existsb (Z.eqb c) (ts_derived l))) cells.

Lemma couple_frame l u c : ~ In c (ts_derived l) -> couple_list l u c = u c.
Proof.
  intro H. unfold couple_list. destruct (find (fun t => Z.eqb (t_w t) c) l) as [t|] eqn:F; auto.
  apply find_some in F. destruct F as [Ht E]. apply Z.eqb_eq in E. exfalso. apply H.
  unfold ts_derived. rewrite <- E. now apply in_map.
Qed.

Lemma couple_reads l u u' c : (forall r, In r (ts_reads l) -> u r = u' r) ->
  In c (ts_derived l) -> couple_list l u c = couple_list l u' c.
Proof.
  intros H Hd. unfold couple_list. destruct (find (fun t => Z.eqb (t_w t) c) l) as [t|] eqn:F.
  - apply find_some in F. destruct F as [Ht _].
    assert (In (t_r1 t) (ts_reads l) /\ In (t_r2 t) (ts_reads l)) as [A B].
    { unfold ts_reads. split; apply in_flat_map; exists t; simpl; auto. }
    now rewrite (H _ A), (H _ B).
  - exfalso. unfold ts_derived in Hd. apply in_map_iff in Hd. destruct Hd as [t [E Ht]].
    pose proof (find_none _ _ F t Ht) as N. simpl in N. rewrite E, Z.eqb_refl in N. discriminate.
Qed.

Lemma guard_not_in (xs ds : list Z) :
  forallb (fun r => negb (existsb (Z.eqb r) ds)) xs = true -> forall c, In c xs -> ~ In c ds.
Proof.
  intros H c Hc Hd. rewrite forallb_forall in H. specialize (H c Hc). apply negb_true_iff in H.
  assert (existsb (Z.eqb c) ds = true) by (apply existsb_exists; exists c; split; auto; apply Z.eqb_refl).
  congruence.
Qed.
