(* C20 - proofs: what the conversion algebra over R on the generated formulas (Gen/KConv.v) needs, and
   bookkeeping lemmas on the hand model (C20/Model.v). *)
From Coq Require Import ZArith List Bool Reals.
From PP Require Import C20.Model Gen.KConv.
Import ListNotations.

Section Conv.
Open Scope R_scope.

(* energy: mass flow [kg/s] x heating value [kWh/kg] x 3600/1000 = power [MW] *)
Definition gas_power (mdot hhv : R) : R := mdot * (hhv * 3600 / 1000).

End Conv.

(* every identity between the generated formulas is an identity of rational functions once they are unfolded:
   [autounfold with kconv; field] *)
Create HintDb kconv.
#[export] Hint Unfold p2g_written g2p_written g2p_power_led_written g2g_written conversion_factor_mw_to_kgps
  conversion_factor_kgps_to_mw conversion_factor_gas1_to_gas2 gas_power : kconv.

Lemma owned_by_spec n c : owned_by n c = true <-> c_owner c = ONet n.
Proof.
  unfold owned_by. destruct (c_owner c) as [|m]; [split; discriminate|].
  rewrite Z.eqb_eq. split; [intros -> | intros [= ->]]; reflexivity.
Qed.

Lemma named_by_multi_spec n c : named_by_multi n c = true <-> c_owner c = OMulti /\ In n (c_names c).
Proof.
  unfold named_by_multi. destruct (c_owner c); [|split; [discriminate | intros [[=] _]]].
  rewrite existsb_exists. split.
  - intros [m [Hm E]]. apply Z.eqb_eq in E. subst. auto.
  - intros [_ H]. exists n. split; [exact H | apply Z.eqb_refl].
Qed.

Lemma evaluated_spec nets lo n : In n (evaluated nets lo) <-> In n nets /\ relevant lo n = true.
Proof. unfold evaluated. apply filter_In. Qed.

Lemma converged_iff_all nets lo run old :
  evaluate nets lo run old = true <-> forall n, In n nets -> new_flag lo run old n = true.
Proof. unfold evaluate. apply forallb_forall. Qed.

Lemma converged_implies_fresh nets lo run old :
  evaluate nets lo run old = true ->
  (forall n, In n (evaluated nets lo) -> run n = true) /\
  (forall n, In n nets -> relevant lo n = false -> old n = true).
Proof.
  intro H. rewrite converged_iff_all in H. split.
  - intros n Hn. apply evaluated_spec in Hn. destruct Hn as [Hn Hr].
    specialize (H n Hn). unfold new_flag in H. now rewrite Hr in H.
  - intros n Hn Hr. specialize (H n Hn). unfold new_flag in H. now rewrite Hr in H.
Qed.

Lemma one_diverged_not_converged nets lo run old n :
  In n nets -> relevant lo n = true -> run n = false -> evaluate nets lo run old = false.
Proof.
  intros Hn Hr Hf. apply not_true_iff_false. intros E.
  apply converged_implies_fresh in E. destruct E as [E _].
  rewrite (E n) in Hf; [discriminate|]. apply evaluated_spec. auto.
Qed.

Lemma fold_left_andb l : forall b, fold_left andb l b = b && forallb (fun x => x) l.
Proof.
  induction l as [|a r IH]; intros b; simpl.
  - now rewrite andb_true_r.
  - now rewrite IH, andb_assoc.
Qed.
