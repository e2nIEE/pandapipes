(* C02 - what the property theorems of Props.v / PropsExtra.v share: the two hydraulic residuals in a form that covers
   both flow directions, the identity between the two ways of writing the Nikuradse term, and for Colebrook-White the
   powers of lambda and the fixed points of a Newton step. *)
From Coq Require Import Reals Bool Lra.
From PP Require Import Kern.RBool C02.Spec Gen.KHydIncompNp Gen.KHydIncompNb Gen.KHydCompNp Gen.KHydCompNb.
Open Scope R_scope.

Lemma Rabs_sq_pos m : 0 <= m -> Rabs m * m = m ^ 2.
Proof. intros H. rewrite Rabs_right by lra. ring. Qed.
Lemma Rabs_sq_neg m : m <= 0 -> Rabs m * m = - m ^ 2.
Proof. intros H. rewrite Rabs_left1 by lra. ring. Qed.

Lemma Rabs_forward m : 0 <= m -> Rabs m = 1 * m.
Proof. intros H. rewrite Rabs_right by lra. ring. Qed.
Lemma Rabs_reverse m : m <= 0 -> Rabs m = - 1 * m.
Proof. intros H. rewrite Rabs_left1 by exact H. ring. Qed.

(* The kernels contain |m| m where the documented laws, written in flow direction, have v^2.  With s the sign of the flow
   (|m| = s m: s = 1 by Rabs_forward, s = -1 by Rabs_reverse) one equation holds for both directions; the friction term
   simply changes sign.  The kernels are regenerated from the source on every run: |m| is rewritten wherever it stands and
   the rest is left to [field], for each engine separately, so that reordering the operands of a kernel does not break the
   proof. *)
Lemma incomp_signed_law (nb : bool) : forall A D lam L zeta m PL dl dh p1 p0 rho s : R,
  A <> 0 -> D <> 0 -> rho <> 0 -> Rabs m = s * m ->
  (if nb then hyd_incomp_nb_load_vec A D lam L zeta m PL dl dh p1 p0 rho
   else hyd_incomp_np_load_vec A D lam L zeta m PL dl dh p1 p0 rho) * bar
  = (p0 - p1 + PL) * bar + rho * g_doc * dh
    - s * (rho * lam * L * (m / (rho * A)) ^ 2 / (2 * D) + zeta * (rho * (m / (rho * A)) ^ 2 / 2)).
Proof.
  intros A D lam L zeta m PL dl dh p1 p0 rho s HA HD Hr Hs.
  destruct nb; unfold hyd_incomp_nb_load_vec, hyd_incomp_np_load_vec, g_doc, bar; cbv zeta; rewrite Hs; field;
    repeat split; assumption.
Qed.

(* gas: the integrated form of the documented differential law  p dp = -C dl  =>  (P_i^2 - P_{i+1}^2)/2 = C L,  with the
   lumped loss coefficient entering like lambda L / d, pressures P in Pa, v_N = m / (rho_N A) *)
Lemma comp_signed_law (nb : bool) : forall A D L zeta m PL Tout K dc dc1 dl dh lam Tin p1 p0 rho rho_n s : R,
  A <> 0 -> D <> 0 -> rho_n <> 0 -> p0 + p1 <> 0 -> Rabs m = s * m ->
  (if nb then hyd_comp_nb_load_vec A D L zeta m PL Tout K dc dc1 dl dh lam Tin p1 p0 rho rho_n
   else hyd_comp_np_load_vec A D L zeta m PL Tout K dc dc1 dl dh lam Tin p1 p0 rho rho_n)
  * bar * ((p0 * bar + p1 * bar) / 2)
  = ((p0 * bar) ^ 2 - (p1 * bar) ^ 2) / 2 + (PL * bar + rho * g_doc * dh) * ((p0 * bar + p1 * bar) / 2)
    - s * (doc_gas_coeff lam rho_n (m / (rho_n * A)) D ((Tin + Tout) / 2) K * L
           + zeta * (rho_n * (m / (rho_n * A)) ^ 2 / 2) * pN_pa * ((Tin + Tout) / 2 / TN_k) * K).
Proof.
  intros A D L zeta m PL Tout K dc dc1 dl dh lam Tin p1 p0 rho rho_n s HA HD Hr Hp Hs.
  destruct nb; unfold hyd_comp_nb_load_vec, hyd_comp_np_load_vec, doc_gas_coeff, g_doc, bar, pN_pa, TN_k; cbv zeta;
    rewrite Hs; field; repeat split; lra.
Qed.

(* -2 log(k/(c d)) = 2 log(d/k) + 2 log c: the documented Nikuradse term has c = 3.71, the gas kernel writes the right-hand
   side with 1.14 for 2 log c *)
Lemma nikuradse_shift c d k : 0 < c -> 0 < d -> 0 < k ->
  - 2 * log10 (k / (c * d)) = 2 * log10 (d / k) + 2 * log10 c.
Proof.
  intros Hc Hd Hk. assert (Hq : 0 < d / k) by (apply Rdiv_lt_0_compat; assumption).
  replace (k / (c * d)) with (/ (c * (d / k))) by (field; lra).
  rewrite log10_inv, log10_mult by first [assumption | apply Rmult_lt_0_compat; assumption]. ring.
Qed.

(* Colebrook-White (the nested functions of colebrook_white handed to scipy.optimize.newton, Gen/KColebrook.v): the powers
   lambda^(-1/2), lambda^(-3/2) in terms of sqrt, in the unfolded form in which they occur after differentiation *)
Lemma exp_mhalf x : 0 < x -> exp (- (1 / 2) * ln x) = / sqrt x.
Proof.
  intros H. change (exp (- (1 / 2) * ln x)) with (Rpower x (- (1 / 2))). rewrite Rpower_Ropp.
  replace (1 / 2) with (/ 2) by lra. rewrite Rpower_sqrt by exact H. reflexivity.
Qed.
Lemma exp_m3half x : 0 < x -> exp (- (3 / 2) * ln x) = / (x * sqrt x).
Proof.
  intros H. change (exp (- (3 / 2) * ln x)) with (Rpower x (- (3 / 2))). rewrite Rpower_Ropp.
  replace (3 / 2) with (1 + / 2) by lra. rewrite Rpower_plus, Rpower_1, Rpower_sqrt by exact H. reflexivity.
Qed.

(* a fixed point of the Newton step x - f(x)/f'(x) is a root (whatever scipy's iteration does to find it) *)
Lemma newton_fixed_point_root f df x : df <> 0 -> x - f / df = x -> f = 0.
Proof. intros Hd Hfix. replace f with (f / df * df) by (field; exact Hd). replace (f / df) with 0 by lra. ring. Qed.
