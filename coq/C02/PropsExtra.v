(* C02 - further property theorems: zero-length branches (valves, heat exchangers, pumps), Colebrook-White, closeness of the
   two Nikuradse forms.  Lemmas: Proofs.v (stdlib), ProofsBounds.v (coq-interval); the derivative is taken with
   Coquelicot here. *)
From Coq Require Import Reals Bool Lra.
From Coquelicot Require Import Coquelicot.
From PP Require Import Kern.RBool C02.Spec Gen.KHydIncompNp Gen.KHydIncompNb Gen.KColebrook Gen.KLambdaNp.
From PP Require C02.Proofs C02.ProofsBounds.
Open Scope R_scope.

(* valves, heat exchangers and pumps are liquid pit rows of length 0: for flow along the declaration the law reduces to
   p_from - p_to + lift + [rho g dh - zeta rho v^2/2] / 1e5 (lift = pump pressure; zeta = valve / heat exchanger loss
   coefficient), whatever lambda and D are *)
Theorem zero_length_branch_law :
  forall (nb : bool) (bp_AREA bp_D bp_LAMBDA bp_LOSS_COEFFICIENT bp_MDOTINIT bp_PL der_lambda height_difference
          p_init_i1_abs p_init_i_abs rho : R),
  bp_AREA <> 0 -> bp_D <> 0 -> rho <> 0 -> 0 <= bp_MDOTINIT ->
  let lv := if nb then hyd_incomp_nb_load_vec bp_AREA bp_D bp_LAMBDA 0 bp_LOSS_COEFFICIENT bp_MDOTINIT bp_PL
                         der_lambda height_difference p_init_i1_abs p_init_i_abs rho
            else hyd_incomp_np_load_vec bp_AREA bp_D bp_LAMBDA 0 bp_LOSS_COEFFICIENT bp_MDOTINIT bp_PL
                         der_lambda height_difference p_init_i1_abs p_init_i_abs rho in
  let v := bp_MDOTINIT / (rho * bp_AREA) in
  lv * bar = (p_init_i_abs - p_init_i1_abs + bp_PL) * bar + rho * g_doc * height_difference
             - bp_LOSS_COEFFICIENT * (rho * v ^ 2 / 2).
Proof.
  intros nb A D lam zeta m PL dl dh p1 p0 rho HA HD Hr Hm lv v. subst lv v.
  rewrite C02.Proofs.incomp_signed_law with (s := 1) by first [assumption | apply C02.Proofs.Rabs_forward, Hm].
  lra.
Qed.
Print Assumptions zero_length_branch_law.

(* friction_model = "colebrook": the function handed to scipy.optimize.newton vanishes exactly at the solutions of the documented
   equation 1/sqrt(lambda) = -2 log(2.51 / (Re sqrt(lambda)) + k / (3.71 d)) *)
Theorem colebrook_implicit_is_documented_equation : forall d k lam re : R, 0 < lam ->
  cw_implicit_f d k lam re = 0 <-> 1 / sqrt lam = - 2 * log10 (251 / 100 / (re * sqrt lam) + k / (371 / 100 * d)).
Proof.
  intros d k lam re H. unfold cw_implicit_f, Rpower. rewrite C02.Proofs.exp_mhalf by exact H. same_atoms.
  split; intros E; lra.
Qed.
Print Assumptions colebrook_implicit_is_documented_equation.

(* ... the fprime argument is its exact derivative with respect to lambda ... *)
Theorem colebrook_derivative_is_exact : forall d k lam re : R,
  0 < lam -> 0 < re -> 0 < 251 / 100 / (re * sqrt lam) + k / (371 / 100 * d) ->
  is_derive (fun x => cw_implicit_f d k x re) lam (cw_derivative_df d k lam re).
Proof.
  intros d k lam re Hl Hr Ha. unfold cw_implicit_f, cw_derivative_df, log10, Rpower.
  assert (Hs : 0 < sqrt lam) by (apply sqrt_lt_R0; exact Hl).
  pose proof ln10_pos as Hln.
  auto_derive.
  - repeat split; try assumption. apply Rgt_not_eq. apply Rmult_lt_0_compat; assumption.
  - rewrite C02.Proofs.exp_mhalf, C02.Proofs.exp_m3half by exact Hl.
    set (q := k / (371 / 100 * d)) in *. set (s := sqrt lam) in *.
    assert (El : lam = s * s) by (unfold s; rewrite sqrt_sqrt; lra). rewrite El.
    assert (Hq : 251 / 100 * / (re * s) + q <> 0) by (unfold Rdiv in Ha; lra).
    assert (Hrs : 0 < re * s) by (apply Rmult_lt_0_compat; assumption).
    (* the denominator [field] will ask to be non-zero: 251 + q * (100 * (re * s)) *)
    assert (Hp : 0 < (251 / 100 / (re * s) + q) * (100 * (re * s))) by (apply Rmult_lt_0_compat; lra).
    replace ((251 / 100 / (re * s) + q) * (100 * (re * s))) with (251 + q * (100 * (re * s))) in Hp by (field; lra).
    field. repeat split; lra.
Qed.
Print Assumptions colebrook_derivative_is_exact.

(* ... and any fixed point of the Newton step is a root.  That newton() reaches one within its tolerance is an oracle
   (monitor: |f(reported lambda)| <= 2e-2). *)
Theorem colebrook_newton_fixed_point_is_root : forall d k lam re : R,
  cw_derivative_df d k lam re <> 0 ->
  lam - cw_implicit_f d k lam re / cw_derivative_df d k lam re = lam -> cw_implicit_f d k lam re = 0.
Proof. intros d k lam re. apply C02.Proofs.newton_fixed_point_root. Qed.
Print Assumptions colebrook_newton_fixed_point_is_root.

(* gases use 1/(2 log(d/k) + 1.14)^2, the documentation (and the liquid kernel) 1/(-2 log(k/(3.71 d)))^2: within 1e-3 relative
   for every relative roughness 1e-6 <= k/d <= 0.1 *)
Theorem nikuradse_forms_close : forall area d eta k m : R,
  0 < k -> 10 <= d / k <= 1000000 ->
  Rabs (lambda_comp_np_lambda_nikuradse area d eta k m - lambda_incomp_np_lambda_nikuradse area d eta k m)
  <= 1 / 1000 * lambda_incomp_np_lambda_nikuradse area d eta k m.
Proof. intros area d eta k m Hk [Hlo _]. apply C02.ProofsBounds.nikuradse_forms_close_from; assumption. Qed.
Print Assumptions nikuradse_forms_close.

(* hypotheses are satisfiable: DN100, k = 0.1 mm (d/k = 1000), Re = 1e5, lambda = 0.02 *)
Example colebrook_guards_example :
  0 < (2 / 100 : R) /\ 0 < (100000 : R) /\
  0 < 251 / 100 / (100000 * sqrt (2 / 100)) + (1 / 10000) / (371 / 100 * (1 / 10)) /\
  10 <= (1 / 10) / (1 / 10000) <= 1000000.
Proof.
  assert (Hs : 0 < sqrt (2 / 100)) by (apply sqrt_lt_R0; lra).
  repeat split; try lra.
  apply Rplus_lt_0_compat; [| lra]. apply Rdiv_lt_0_compat; [lra |]. apply Rmult_lt_0_compat; lra.
Qed.
