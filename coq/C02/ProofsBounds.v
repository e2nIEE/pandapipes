(* C02 - the two Nikuradse forms (documented 3.71 form used for liquids, 2 log(d/k) + 1.14 form used for gases) differ by less
   than 1e-3 relative from d/k = 10 upwards.  coq-interval is used for one fact about constants: 2 log 3.71 is just below 1.14. *)
From Coq Require Import Reals Lra.
From Interval Require Import Tactic.
From PP Require Import Kern.RBool C02.Proofs Gen.KLambdaNp.
Open Scope R_scope.

Lemma inv_sq_close a b e : 0 < b <= a -> (1 - e) * a ^ 2 <= b ^ 2 ->
  Rabs (1 / a ^ 2 - 1 / b ^ 2) <= e * (1 / b ^ 2).
Proof.
  intros [Hb Hab] He.
  assert (Ha2 : 0 < a ^ 2) by nra. assert (Hb2 : 0 < b ^ 2) by nra.
  assert (E : 1 / a ^ 2 - 1 / b ^ 2 = - ((a ^ 2 - b ^ 2) / (a ^ 2 * b ^ 2))) by (field; lra).
  rewrite E, Rabs_Ropp, Rabs_right.
  - apply (Rmult_le_reg_r (a ^ 2 * b ^ 2)); [nra |].
    replace ((a ^ 2 - b ^ 2) / (a ^ 2 * b ^ 2) * (a ^ 2 * b ^ 2)) with (a ^ 2 - b ^ 2) by (field; lra).
    replace (e * (1 / b ^ 2) * (a ^ 2 * b ^ 2)) with (e * a ^ 2) by (field; lra). lra.
  - apply Rle_ge. apply Rmult_le_pos; [nra |]. left. apply Rinv_0_lt_compat. nra.
Qed.

Lemma nikuradse_offset : 0 <= 57 / 50 - 2 * log10 (371 / 100) <= 13 / 10000.
Proof. unfold log10. split; interval. Qed.

(* By nikuradse_shift the two denominators are a = 2 t + 1.14 and b = 2 t + 2 log 3.71 with t = log(d/k) >= 1: they differ by
   the constant delta = a - b of nikuradse_offset, and 1000 b^2 - 999 a^2 = a (a - 2000 delta) + 1000 delta^2 >= 0 because
   a >= 3.14 > 2000 delta.  No upper bound on d/k is needed. *)
Lemma nikuradse_forms_close_from : forall area d eta k m : R,
  0 < k -> 10 <= d / k ->
  Rabs (lambda_comp_np_lambda_nikuradse area d eta k m - lambda_incomp_np_lambda_nikuradse area d eta k m)
  <= 1 / 1000 * lambda_incomp_np_lambda_nikuradse area d eta k m.
Proof.
  intros area d eta k m Hk Hlo.
  assert (Hd : 0 < d).
  { replace d with (d / k * k) by (field; lra). apply Rmult_lt_0_compat; lra. }
  unfold lambda_comp_np_lambda_nikuradse, lambda_incomp_np_lambda_nikuradse. cbv zeta.
  rewrite nikuradse_shift by lra.
  assert (Ht : 1 <= log10 (d / k)) by (rewrite <- log10_10; apply log10_le; lra).
  pose proof nikuradse_offset as Hdelta.
  apply inv_sq_close; nra.
Qed.
