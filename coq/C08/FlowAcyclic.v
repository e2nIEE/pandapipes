(* C08 - in a network of passive level branches the flow graph is acyclic.

   Over the hydraulic model of C08/Unique.v: if every branch law is strictly increasing with phi(0) = 0 and there is no
   lift / height term (cst = 0), a solution's flow runs from the higher to the lower pressure in every branch, so the
   number of nodes with a higher pressure is a rank that strictly increases along the flow direction of every flowing
   branch.  This is the [rank] hypothesis of the thermal uniqueness theorem in checkable form
   (thermal_start_values_do_not_matter_acyclic): without pumps, compressors and height differences a flow cycle cannot
   exist.  (With lift elements it can - e.g. a heating loop through a circulation pump - and there the pump's outlet is
   an infeed node with fixed temperature, which cuts the cycle.) *)
From Coq Require Import Reals List Lra Lia.
From PP Require Import C08.Unique.
Import ListNotations.
Open Scope R_scope.

(* number of nodes among 0 .. n-1 with a pressure above node i's *)
Fixpoint rank_of (p : nat -> R) (n i : nat) : nat :=
  match n with
  | O => O
  | S k => rank_of p k i + (if Rlt_dec (p i) (p k) then 1 else 0)
  end.

(* every node above a is above b; a itself is above b but not above a *)
Lemma rank_lt p n a b : p b < p a ->
  (rank_of p n a <= rank_of p n b)%nat /\ ((a < n)%nat -> (rank_of p n a < rank_of p n b)%nat).
Proof.
  intros Hp. induction n as [|k [IHle IHlt]]; simpl; [split; lia|].
  destruct (Rlt_dec (p a) (p k)) as [Hak|Hak], (Rlt_dec (p b) (p k)) as [Hbk|Hbk]; try lra;
    (split; [lia|]); intros Ha.
  - assert (a <> k) by (intros ->; lra). specialize (IHlt ltac:(lia)). lia.
  - lia.
  - assert (a <> k) by (intros ->; lra). specialize (IHlt ltac:(lia)). lia.
Qed.

Definition passive_law (b : branch) : Prop := strictly_increasing (phi b) /\ phi b 0 = 0 /\ cst b = 0.

Lemma law_in n slack pfix load bs p ms b m :
  solves n slack pfix load bs p ms -> In (b, m) (combine bs ms) -> p (fn b) - p (tn b) + cst b = phi b m.
Proof.
  intros S. pose proof (s_law _ _ _ _ _ _ _ S) as H. clear S.
  induction H as [|b' m' l l' Hb _ IH]; simpl; [tauto|].
  intros [E|Hin]; [inversion E; subst; exact Hb|apply IH; exact Hin].
Qed.

Theorem passive_flow_runs_downhill : forall n slack pfix load bs p ms b m,
  solves n slack pfix load bs p ms -> In (b, m) (combine bs ms) -> passive_law b ->
  (0 < m -> p (tn b) < p (fn b)) /\ (m < 0 -> p (fn b) < p (tn b)) /\ (m = 0 -> p (fn b) = p (tn b)).
Proof.
  intros n slack pfix load bs p ms b m S Hin (Hinc & H0 & Hc).
  pose proof (law_in _ _ _ _ _ _ _ _ _ S Hin) as Hl. rewrite Hc in Hl.
  repeat split; intros Hm.
  - pose proof (Hinc 0 m Hm). lra.
  - pose proof (Hinc m 0 Hm). lra.
  - subst m. lra.
Qed.

Theorem passive_flow_has_a_rank : forall n slack pfix load bs p ms,
  solves n slack pfix load bs p ms -> in_range n bs -> Forall passive_law bs ->
  exists rank : nat -> nat, forall b m, In (b, m) (combine bs ms) ->
    (0 < m -> (rank (fn b) < rank (tn b))%nat) /\ (m < 0 -> (rank (tn b) < rank (fn b))%nat).
Proof.
  intros n slack pfix load bs p ms S Hr Hp. exists (rank_of p n). intros b m Hin.
  assert (Hb : In b bs) by (eapply in_combine_l; eauto).
  unfold in_range in Hr. rewrite Forall_forall in Hr, Hp. destruct (Hr b Hb) as [Hf Ht].
  destruct (passive_flow_runs_downhill _ _ _ _ _ _ _ _ _ S Hin (Hp b Hb)) as (Hpos & Hneg & _).
  split; intros Hm; apply rank_lt; auto.
Qed.

(* consequence: no directed flow cycle - stated for a closed walk of flowing branches traversed in flow direction *)
Inductive flow_walk (bm : list (branch * R)) : nat -> nat -> Prop :=
| fw_fwd b m : In (b, m) bm -> 0 < m -> flow_walk bm (fn b) (tn b)
| fw_bwd b m : In (b, m) bm -> m < 0 -> flow_walk bm (tn b) (fn b)
| fw_trans i j k : flow_walk bm i j -> flow_walk bm j k -> flow_walk bm i k.

Lemma flow_walk_ranked bm (rank : nat -> nat) :
  (forall b m, In (b, m) bm ->
     (0 < m -> (rank (fn b) < rank (tn b))%nat) /\ (m < 0 -> (rank (tn b) < rank (fn b))%nat)) ->
  forall i j, flow_walk bm i j -> (rank i < rank j)%nat.
Proof.
  intros Hrank i j W. induction W as [b m Hin Hm|b m Hin Hm|x y z _ IH1 _ IH2].
  - apply (proj1 (Hrank b m Hin) Hm).
  - apply (proj2 (Hrank b m Hin) Hm).
  - lia.
Qed.
