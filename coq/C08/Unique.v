(* C08 - uniqueness of the exact hydraulic solution for strictly increasing branch laws
   (any graph: meshes, parallel branches, self loops; any number of slack nodes).
   Hand-written mathematics over R; tied to the code by C08/Props.v through the generated kernel
   facts (the incompressible Nikuradse residual is a strictly increasing function of m).
   The network model comes first ([branch], [outflow], [solves], [Reach]; C09/Network.v transforms the same
   networks), then the energy argument. *)
From Coq Require Import Reals List Lra Lia.
Import ListNotations.
Open Scope R_scope.

Record branch := { fn : nat; tn : nat; phi : R -> R; cst : R }.

Definition strictly_increasing (f : R -> R) := forall x y, x < y -> f x < f y.

Fixpoint sumn (n : nat) (f : nat -> R) : R :=
  match n with O => 0 | S k => sumn k f + f k end.

Definition ind (a b : nat) : R := if Nat.eqb a b then 1 else 0.

(* net outflow of node i under a flow assignment *)
Fixpoint outflow (bm : list (branch * R)) (i : nat) : R :=
  match bm with
  | [] => 0
  | (b, m) :: r => ind (fn b) i * m - ind (tn b) i * m + outflow r i
  end.

Definition in_range (n : nat) (bs : list branch) := Forall (fun b => (fn b < n)%nat /\ (tn b < n)%nat) bs.

Record solves (n : nat) (slack : nat -> bool) (pfix load : nat -> R) (bs : list branch)
              (p : nat -> R) (ms : list R) : Prop := {
  s_len : length ms = length bs;
  s_fix : forall i, (i < n)%nat -> slack i = true -> p i = pfix i;
  s_bal : forall i, (i < n)%nat -> slack i = false -> outflow (combine bs ms) i = - load i;
  s_law : Forall2 (fun b m => p (fn b) - p (tn b) + cst b = phi b m) bs ms
}.

Inductive Reach (n : nat) (slack : nat -> bool) (bs : list branch) : nat -> Prop :=
| reach_slack i : (i < n)%nat -> slack i = true -> Reach n slack bs i
| reach_fwd b : In b bs -> Reach n slack bs (fn b) -> Reach n slack bs (tn b)
| reach_bwd b : In b bs -> Reach n slack bs (tn b) -> Reach n slack bs (fn b).

Lemma sumn_ext n f g : (forall i, (i < n)%nat -> f i = g i) -> sumn n f = sumn n g.
Proof.
  induction n as [|k IH]; intros H; simpl; [reflexivity|].
  rewrite IH by (intros; apply H; lia). rewrite H by lia. reflexivity.
Qed.

Lemma sumn_plus n f g : sumn n (fun i => f i + g i) = sumn n f + sumn n g.
Proof. induction n as [|k IH]; simpl; lra. Qed.

Lemma sumn_scal n c f : sumn n (fun i => c * f i) = c * sumn n f.
Proof. induction n as [|k IH]; simpl; lra. Qed.

Lemma sumn_zero n f : (forall i, (i < n)%nat -> f i = 0) -> sumn n f = 0.
Proof.
  induction n as [|k IH]; intros H; simpl; [reflexivity|].
  rewrite IH by (intros; apply H; lia). rewrite H by lia. lra.
Qed.

Lemma sumn_indicator n k f : (k < n)%nat -> sumn n (fun i => ind k i * f i) = f k.
Proof.
  induction n as [|m IH]; intros H; [lia|]. simpl.
  destruct (Nat.eq_dec k m) as [->|Hne].
  - unfold ind at 2. rewrite Nat.eqb_refl.
    rewrite sumn_zero; [lra|]. intros i Hi. unfold ind.
    destruct (Nat.eqb m i) eqn:E; [apply Nat.eqb_eq in E; lia | lra].
  - rewrite IH by lia. unfold ind. destruct (Nat.eqb k m) eqn:E; [apply Nat.eqb_eq in E; lia | lra].
Qed.

(* a sum of non-negative terms that vanishes has only vanishing terms *)
Lemma fold_nonneg_zero (l : list R) :
  Forall (fun x => 0 <= x) l -> fold_right Rplus 0 l = 0 -> Forall (fun x => x = 0) l.
Proof.
  induction l as [|x r IH]; intros H Hs; [constructor|].
  inversion H as [|? ? Hx Hr]; subst. simpl in Hs.
  assert (Hn : 0 <= fold_right Rplus 0 r) by (clear - Hr; induction Hr; simpl; lra).
  constructor; [lra | apply IH; [exact Hr | lra]].
Qed.

Lemma increasing_product_definite f x y : strictly_increasing f ->
  0 <= (x - y) * (f x - f y) /\ ((x - y) * (f x - f y) = 0 -> x = y).
Proof.
  intros Hf. destruct (Rtotal_order x y) as [H|[H|H]].
  - specialize (Hf _ _ H). split; [nra|]. intros; nra.
  - subst. split; [lra|auto].
  - specialize (Hf _ _ H). split; [nra|]. intros; nra.
Qed.

Lemma range_combine n bs (ds : list R) : in_range n bs ->
  Forall (fun x => (fn (fst x) < n)%nat /\ (tn (fst x) < n)%nat) (combine bs ds).
Proof.
  intros H. revert ds. induction H as [|b r Hb Hr IH]; intros ds; simpl; [constructor|].
  destruct ds; constructor; auto.
Qed.

Definition law (p : nat -> R) (b : branch) (m : R) : Prop := p (fn b) - p (tn b) + cst b = phi b m.

(* sum over the branches of  (m - m') ((p - p')(fn) - (p - p')(tn)) *)
Fixpoint energy (p p' : nat -> R) (bs : list branch) (ms ms' : list R) : R :=
  match bs, ms, ms' with
  | b :: r, m :: s, m' :: s' =>
      (m - m') * ((p (fn b) - p' (fn b)) - (p (tn b) - p' (tn b))) + energy p p' r s s'
  | _, _, _ => 0
  end.

(* discrete integration by parts: the same sum taken node by node, (p - p')_i times the difference of the net outflows *)
Lemma energy_by_parts n p p' bs : in_range n bs ->
  forall ms ms', length ms = length bs -> length ms' = length bs ->
  energy p p' bs ms ms'
  = sumn n (fun i => (p i - p' i) * (outflow (combine bs ms) i - outflow (combine bs ms') i)).
Proof.
  induction 1 as [|b r [Hf Ht] _ IH]; intros ms ms' L L'.
  - symmetry. apply sumn_zero. intros; simpl; lra.
  - destruct ms as [|m ms]; [discriminate|]. destruct ms' as [|m' ms']; [discriminate|].
    simpl.
    rewrite (sumn_ext n _ (fun i => ((m - m') * (ind (fn b) i * (p i - p' i)) + (- (m - m')) * (ind (tn b) i * (p i - p' i)))
                                    + (p i - p' i) * (outflow (combine r ms) i - outflow (combine r ms') i)))
      by (intros; lra).
    rewrite sumn_plus, sumn_plus, !sumn_scal, !sumn_indicator by assumption.
    rewrite (IH ms ms') by (simpl in *; lia). lra.
Qed.

(* every term of the energy is (m - m') (phi m - phi m'): non-negative, and zero only for m = m' *)
Lemma energy_definite p p' bs ms ms' :
  Forall (fun b => strictly_increasing (phi b)) bs ->
  Forall2 (law p) bs ms -> Forall2 (law p') bs ms' ->
  0 <= energy p p' bs ms ms' /\ (energy p p' bs ms ms' = 0 -> ms = ms').
Proof.
  intros Hm F. revert ms'.
  induction F as [|b m r ms Hl Fr IH]; intros ms' F'; inversion F' as [|? m' ? ms0' Hl' Fr']; subst.
  - split; [apply Rle_refl | reflexivity].
  - cbn [energy]. destruct (IH (Forall_inv_tail Hm) _ Fr') as [Hn Hz].
    destruct (increasing_product_definite (phi b) m m' (Forall_inv Hm)) as [Hn1 Hz1]. unfold law in Hl, Hl'.
    replace (p (fn b) - p' (fn b) - (p (tn b) - p' (tn b))) with (phi b m - phi b m') by lra.
    split; [lra|]. intros E. f_equal; [apply Hz1 | apply Hz]; lra.
Qed.

Section Uniqueness.
  Variables (n : nat) (slack : nat -> bool) (pfix load : nat -> R) (bs : list branch).
  Variables (p p' : nat -> R) (ms ms' : list R).
  Hypothesis Hrange : in_range n bs.
  Hypothesis Hmono : Forall (fun b => strictly_increasing (phi b)) bs.
  Hypothesis S : solves n slack pfix load bs p ms.
  Hypothesis S' : solves n slack pfix load bs p' ms'.

  Lemma energy_identity : energy p p' bs ms ms' = 0.
  Proof.
    rewrite (energy_by_parts n) by (exact Hrange || apply S || apply S').
    apply sumn_zero. intros i Hi. destruct (slack i) eqn:E.
    - rewrite (s_fix _ _ _ _ _ _ _ S i Hi E), (s_fix _ _ _ _ _ _ _ S' i Hi E). lra.
    - rewrite (s_bal _ _ _ _ _ _ _ S i Hi E), (s_bal _ _ _ _ _ _ _ S' i Hi E). lra.
  Qed.

  Theorem flows_unique : ms = ms'.
  Proof.
    apply (energy_definite p p' bs ms ms' Hmono); [apply S | apply S' | apply energy_identity].
  Qed.

  Theorem pressures_unique : forall i, Reach n slack bs i -> p i = p' i.
  Proof.
    pose proof flows_unique as Hm.
    destruct S as [L Fx _ Law]. destruct S' as [L' Fx' _ Law'].
    assert (Hb : forall b, In b bs -> p (fn b) - p (tn b) = p' (fn b) - p' (tn b)).
    { rewrite <- Hm in Law'. clear -Law Law'.
      induction Law as [|b0 m r ms0 Hl Fr IH]; intros b Hin; [destruct Hin|].
      inversion Law' as [|? ? ? ? Hl' Fr']; subst.
      destruct Hin as [->|Hin]; [lra | now apply IH]. }
    intros i Hr. induction Hr as [i Hi Hs | b Hin _ IH | b Hin _ IH].
    - rewrite Fx, Fx'; auto.
    - specialize (Hb b Hin). lra.
    - specialize (Hb b Hin). lra.
  Qed.
End Uniqueness.
