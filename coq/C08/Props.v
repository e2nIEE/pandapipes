(* C08 - property theorems, hydraulic clause: uniqueness of the exact solution (lemmas in C08/Unique.v), what the start
   values are used for, and the branch laws of the generated kernels (C08/KernelMono.v, C08/GasLaw.v). *)
From Coq Require Import Reals List String Lra Lia.
From PP Require Import Kern.RBool C08.Unique Gen.StartValueUses C08.KernelMono C08.GasLaw Gen.KHydCompNp Gen.KHydCompNb Gen.KCalcLambda.
Import ListNotations.
Open Scope R_scope.

(* Two exact solutions of the same network (same fixed pressures, loads, strictly increasing branch
   laws) carry the same mass flows, whatever iterate they were reached from ... *)
Theorem hydraulic_flows_unique :
  forall n slack pfix load bs p p' ms ms',
    in_range n bs -> Forall (fun b => strictly_increasing (phi b)) bs ->
    solves n slack pfix load bs p ms -> solves n slack pfix load bs p' ms' -> ms = ms'.
Proof. exact flows_unique. Qed.
Print Assumptions hydraulic_flows_unique.

(* ... and the same pressure at every junction reachable from a pressure-fixing one. *)
Theorem hydraulic_pressures_unique :
  forall n slack pfix load bs p p' ms ms',
    in_range n bs -> Forall (fun b => strictly_increasing (phi b)) bs ->
    solves n slack pfix load bs p ms -> solves n slack pfix load bs p' ms' ->
    forall i, Reach n slack bs i -> p i = p' i.
Proof. exact pressures_unique. Qed.
Print Assumptions hydraulic_pressures_unique.

(* Generated from the source on every run: the start-value columns are read in exactly one place
   and stored into the slots of the unknowns (PINIT / TINIT), nowhere else. *)
Definition use_ok (u : string * string * string * string) : bool :=
  let '(file, fn, name, target) := u in
  (String.eqb file "component_models/junction_component.py") &&
  ((String.eqb fn "get_component_input" && String.eqb target "schema") ||
   (String.eqb fn "create_pit_node_entries" &&
    ((String.eqb name "pn_bar" && String.eqb target "PINIT") ||
     (String.eqb name "tfluid_k" && String.eqb target "TINIT")))).

Theorem start_values_only_seed_unknowns :
  forallb use_ok start_value_uses = true /\
  existsb (fun u => String.eqb (snd u) "PINIT") start_value_uses = true /\
  existsb (fun u => String.eqb (snd u) "TINIT") start_value_uses = true.
Proof. vm_compute. repeat split; reflexivity. Qed.
Print Assumptions start_values_only_seed_unknowns.

(* T-tie: the branch law the code really assembles (generated incompressible kernel + Nikuradse friction
   factor of calc_lambda, numpy and numba twins) is strictly increasing in the mass flow, so the
   uniqueness theorems apply to it.  Needs a resistance (L + zeta > 0): a zero-length branch without
   loss coefficient has phi = 0 and leaves the split between parallel branches undetermined. *)
Theorem incomp_nikuradse_law_strictly_monotone :
  forall A D eta k L zeta PL dl dh p_to p_from rho,
    0 < A -> 0 < D -> 0 < eta -> 0 < rho -> 0 < k -> k <> 371 / 100 * D -> 0 <= L -> 0 <= zeta -> 0 < L + zeta ->
    strictly_increasing (incomp_phi_np A D eta k L zeta PL dl dh p_to p_from rho).
Proof. exact KernelMono.incomp_nikuradse_law_strictly_monotone. Qed.
Print Assumptions incomp_nikuradse_law_strictly_monotone.

Theorem incomp_nikuradse_law_strictly_monotone_numba :
  forall A D eta k L zeta PL dl dh p_to p_from rho,
    0 < A -> 0 < D -> 0 < eta -> 0 < rho -> 0 < k -> k <> 371 / 100 * D -> 0 <= L -> 0 <= zeta -> 0 < L + zeta ->
    strictly_increasing (incomp_phi_nb A D eta k L zeta PL dl dh p_to p_from rho).
Proof.
  intros A D eta k L zeta PL dl dh p_to p_from rho HA HD He Hrho Hk Hkd HL Hz HLz x y Hxy.
  rewrite !incomp_phi_nb_np. now apply KernelMono.incomp_nikuradse_law_strictly_monotone.
Qed.
Print Assumptions incomp_nikuradse_law_strictly_monotone_numba.

(* Gases (isothermal, constant compressibility K, level pipes without lift): the uniqueness theorems hold
   for branch laws written in a transform g of the pressure that is injective on the pressures that occur
   (g p = p * p on absolute pressures p > 0) ... *)
Theorem hydraulic_unique_in_transformed_pressures :
  forall n slack pfix load bs (g : R -> R) p p' ms ms' (dom : R -> Prop),
    in_range n bs -> Forall (fun b => strictly_increasing (phi b)) bs ->
    solves n slack (fun i => g (pfix i)) load bs (fun i => g (p i)) ms ->
    solves n slack (fun i => g (pfix i)) load bs (fun i => g (p' i)) ms' ->
    (forall x y, dom x -> dom y -> g x = g y -> x = y) -> (forall i, dom (p i) /\ dom (p' i)) ->
    ms = ms' /\ forall i, Reach n slack bs i -> p i = p' i.
Proof.
  intros n slack pfix load bs g p p' ms ms' dom Hr Hm S S' Hinj Hdom. split.
  - exact (flows_unique n slack _ load bs _ _ ms ms' Hr Hm S S').
  - intros i Hi. apply Hinj; try apply Hdom.
    exact (pressures_unique n slack _ load bs _ _ ms ms' Hr Hm S S' i Hi).
Qed.
Print Assumptions hydraulic_unique_in_transformed_pressures.

(* ... and the generated compressible kernel (numpy and numba) with the gas-form Nikuradse friction factor of
   calc_lambda is exactly such a law in squared absolute pressures, with a strictly increasing right-hand side. *)
Theorem gas_law_is_squared_pressure_law_strictly_monotone :
  forall A D eta k L zeta K t_from t_out rho_n,
    0 < A -> 0 < D -> 0 < eta -> 0 < rho_n -> 0 < K -> 0 < t_from + t_out ->
    2 * log10 (D / k) + 57 / 50 <> 0 -> 0 <= L -> 0 <= zeta -> 0 < L + zeta ->
    (forall dK dK1 dl rho p_to p_from m, 0 < p_from + p_to ->
       (hyd_comp_np_load_vec A D L zeta m 0 t_out K dK dK1 dl 0 (calc_lambda_comp_np_lambda_tot A D eta k m)
                             t_from p_to p_from rho rho_n = 0
        <-> p_from * p_from - p_to * p_to = gas_phi_np A D eta k L zeta K t_from t_out rho_n m) /\
       (hyd_comp_nb_load_vec A D L zeta m 0 t_out K dK dK1 dl 0 (calc_lambda_comp_nb_lambda_tot A D eta k m)
                             t_from p_to p_from rho rho_n = 0
        <-> p_from * p_from - p_to * p_to = gas_phi_nb A D eta k L zeta K t_from t_out rho_n m)) /\
    strictly_increasing (gas_phi_np A D eta k L zeta K t_from t_out rho_n) /\
    strictly_increasing (gas_phi_nb A D eta k L zeta K t_from t_out rho_n).
Proof.
  intros A D eta k L zeta K t_from t_out rho_n HA HD He Hrn HK Htm Hs HL Hz HLz.
  pose proof (gas_mono_np A D eta k L zeta K t_from t_out rho_n HA HD He Hrn HK Htm Hs HL Hz HLz) as Hmono.
  split; [|split].
  - intros dK dK1 dl rho p_to p_from m Hp. split; [now apply gas_residual_is_squared_law_np|].
    rewrite hyd_comp_load_vec_nb_np, calc_lambda_comp_nb_np, gas_phi_nb_np. now apply gas_residual_is_squared_law_np.
  - exact Hmono.
  - intros x y Hxy. rewrite !gas_phi_nb_np. now apply Hmono.
Qed.
Print Assumptions gas_law_is_squared_pressure_law_strictly_monotone.

(* non-vacuity: a network with a mesh (two parallel branches 0 - 1, then 1 - 2) and linear laws has a solution *)
Definition lin (k : R) : R -> R := fun m => k * m.
Example lin_incr k : 0 < k -> strictly_increasing (lin k).
Proof. intros Hk x y Hxy. unfold lin. nra. Qed.
Definition ex_bs : list branch :=
  [ {| fn := 0; tn := 1; phi := lin 1; cst := 0 |};
    {| fn := 0; tn := 1; phi := lin 1; cst := 0 |};     (* parallel *)
    {| fn := 1; tn := 2; phi := lin 2; cst := 0 |} ].
Example uniqueness_hypotheses_satisfiable :
  in_range 3 ex_bs /\ Forall (fun b => strictly_increasing (phi b)) ex_bs /\
  solves 3 (fun i => Nat.eqb i 0) (fun _ => 5) (fun i => if Nat.eqb i 2 then 2 else 0) ex_bs
         (fun i => match i with O => 5 | S O => 4 | _ => 0 end) [1; 1; 2].
Proof.
  split; [|split].
  - repeat constructor.
  - repeat constructor; apply lin_incr; lra.
  - constructor.
    + reflexivity.
    + intros i Hi Hs. destruct i as [|[|[|]]]; simpl in *; try discriminate; try lia; reflexivity.
    + intros i Hi Hs. destruct i as [|[|[|]]]; simpl in *; try discriminate; unfold ind; simpl; lra.
    + repeat constructor; simpl; unfold lin; lra.
Qed.
