(* C08 - damping strategy clause: property theorem over the Newton-driver model of C05 (coq/C05/Model.v, tied to
   pandapipes.pipeflow.newton_raphson / finalize_iteration by C05's exact scripted-iteration correspondence). *)
From Coq Require Import QArith.
From PP Require Import C05.Model C05.Proofs.

(* Both damping strategies accept an iteration only through the same tolerance test on the same observation (errors
   of all unknowns and the residual); the automatic strategy additionally only when the step was undamped
   (alpha == 1).  So "constant" and "automatic" accept the same states: whatever path the damping takes, a returned
   solution passed the identical convergence test - together with uniqueness (Props.v) the converged solution does
   not depend on the strategy. *)
Theorem damping_strategies_accept_the_same_iterations : forall cfgA cfgC o stA stC,
  c_meth cfgA = Automatic -> c_meth cfgC <> Automatic ->
  c_tols cfgA = c_tols cfgC -> c_tol_res cfgA = c_tol_res cfgC ->
  (s_conv (step cfgA o stA) = true ->
     s_conv (step cfgC o stC) = true /\ (s_alpha (step cfgA o stA) == 1)%Q) /\
  (s_conv (step cfgC o stC) = true -> (s_alpha (step cfgA o stA) == 1)%Q ->
     s_conv (step cfgA o stA) = true).
Proof. exact damping_same_fixed_points_lemma. Qed.
Print Assumptions damping_strategies_accept_the_same_iterations.
