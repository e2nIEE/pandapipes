(* C08 - extension to gases (isothermal, constant compressibility, no lift, level pipe).
   Uniqueness carries over to branch laws written in a strictly monotone transform g of the pressure (g p = p^2 for
   absolute pressures p > 0): apply C08.Unique to q := g o p (Props.v).  T-tie, here: the generated compressible
   kernel with the Nikuradse friction factor of calc_lambda (gas form) has a zero residual iff
   p_from^2 - p_to^2 = gas_phi m, and gas_phi is strictly increasing in m. *)
From Coq Require Import Reals Bool Lra.
From PP Require Import Kern.RBool Gen.KHydCompNp Gen.KHydCompNb Gen.KCalcLambda C08.Unique C08.KernelMono.
Open Scope R_scope.

(* g p = p * p is injective on absolute pressures (the [dom] of hydraulic_unique_in_transformed_pressures) *)
Lemma square_injective_on_positive x y : 0 < x -> 0 < y -> x * x = y * y -> x = y.
Proof. intros Hx Hy H. nra. Qed.

(* friction part of the compressible residual as a function of m (numpy / numba kernels), for constant
   compressibility K, mean temperature tm = (t_from + t_out) / 2, normal density rho_n; 4053/4000 = p_N in bar and
   27315000 = T_N * 1e5 are the kernel's normal_term (C02/Proofs.v comp_signed_law ties them to the documented
   p_N, T_N) *)
Definition gas_phi_np (A D eta k L zeta K t_from t_out rho_n : R) (m : R) : R :=
  (4053 / 4000) / (27315000 * rho_n * A ^ 2) * K * (m * Rabs m)
  * (calc_lambda_comp_np_lambda_tot A D eta k m * L / D + zeta) * ((t_from + t_out) / 2).
Definition gas_phi_nb (A D eta k L zeta K t_from t_out rho_n : R) (m : R) : R :=
  (4053 / 4000) / (27315000 * rho_n * A ^ 2) * K * (m * Rabs m)
  * (calc_lambda_comp_nb_lambda_tot A D eta k m * L / D + zeta) * ((t_from + t_out) / 2).

(* the numba twin: the same residual, and the same friction factor up to the form of the Reynolds test *)
Lemma hyd_comp_load_vec_nb_np A D L zeta m PL t_out K dK dK1 dl dh lam t_from p_to p_from rho rho_n :
  hyd_comp_nb_load_vec A D L zeta m PL t_out K dK dK1 dl dh lam t_from p_to p_from rho rho_n
  = hyd_comp_np_load_vec A D L zeta m PL t_out K dK dK1 dl dh lam t_from p_to p_from rho rho_n.
Proof.
  unfold hyd_comp_nb_load_vec, hyd_comp_np_load_vec. cbv zeta. unfold Rdiv.
  (* by ring, so that the order of operands in either source does not matter; the sum of the end pressures stands
     under an inverse, where ring does not look *)
  ring [(f_equal Rinv (Rplus_comm p_to p_from))].
Qed.

Lemma calc_lambda_comp_nb_np A D eta k m :
  calc_lambda_comp_nb_lambda_tot A D eta k m = calc_lambda_comp_np_lambda_tot A D eta k m.
Proof.
  unfold calc_lambda_comp_nb_lambda_tot, calc_lambda_comp_np_lambda_tot. cbv zeta.
  rewrite Rltb_negb_Rleb. ring.
Qed.

Lemma gas_phi_nb_np A D eta k L zeta K t_from t_out rho_n m :
  gas_phi_nb A D eta k L zeta K t_from t_out rho_n m = gas_phi_np A D eta k L zeta K t_from t_out rho_n m.
Proof. unfold gas_phi_nb, gas_phi_np. rewrite calc_lambda_comp_nb_np. reflexivity. Qed.

(* a residual  d - x / ps * t  with ps > 0 vanishes iff  d ps = x t *)
Lemma quotient_residual d x ps t : 0 < ps -> (d - x * (1 / ps) * t = 0 <-> d * ps = x * t).
Proof.
  intros Hps. assert (Hx : x * (1 / ps) * t * ps = x * t) by (field; lra).
  split; intros H.
  - apply Rminus_diag_uniq in H. rewrite H. exact Hx.
  - apply Rminus_diag_eq. apply (Rmult_eq_reg_r ps); [|lra]. rewrite Hx. exact H.
Qed.

(* zero residual of the generated kernel (no lift: PL = 0, level pipe: height difference 0) <=> law in squared
   pressures: the kernel computes (p_from - p_to) - x / (p_from + p_to) * tm  where  gas_phi m = x * tm *)
Lemma gas_residual_is_squared_law_np :
  forall A D eta k L zeta K dK dK1 dl t_from t_out rho rho_n p_to p_from m,
    0 < p_from + p_to ->
    (hyd_comp_np_load_vec A D L zeta m 0 t_out K dK dK1 dl 0 (calc_lambda_comp_np_lambda_tot A D eta k m)
                          t_from p_to p_from rho rho_n = 0
     <-> p_from * p_from - p_to * p_to = gas_phi_np A D eta k L zeta K t_from t_out rho_n m).
Proof.
  intros A D eta k L zeta K dK dK1 dl t_from t_out rho rho_n p_to p_from m Hs.
  replace (p_from * p_from - p_to * p_to) with ((p_from - p_to) * (p_from + p_to)) by ring.
  unfold gas_phi_np.
  set (x := (4053 / 4000) / (27315000 * rho_n * A ^ 2) * K * (m * Rabs m)
            * (calc_lambda_comp_np_lambda_tot A D eta k m * L / D + zeta)).
  replace (hyd_comp_np_load_vec _ _ _ _ _ _ _ _ _ _ _ _ _ _ _ _ _ _)
    with ((p_from - p_to) - x * (1 / (p_from + p_to)) * ((t_from + t_out) / 2))
    by (unfold hyd_comp_np_load_vec, x; cbv zeta; unfold Rdiv; ring [(f_equal Rinv (Rplus_comm p_to p_from))]).
  apply quotient_residual. exact Hs.
Qed.

(* the gas law is the friction law with N = normal_term * comp_fact of the kernel (comp_fact = K), times the mean
   temperature: the Reynolds number is brought to the form of [friction_law], the rest is left to ring *)
Lemma gas_phi_np_friction A D eta k L zeta K t_from t_out rho_n m : 0 < A -> 0 < D -> 0 < eta ->
  gas_phi_np A D eta k L zeta K t_from t_out rho_n m
  = friction_law ((4053 / 4000) / (27315000 * rho_n * A ^ 2) * K) L D zeta
                 (D / (eta * A)) (1 / 100000000) (1 / ((2 * log10 (D / k) + 57 / 50) ^ 2)) m
    * ((t_from + t_out) / 2).
Proof.
  intros HA HD He.
  unfold gas_phi_np, calc_lambda_comp_np_lambda_tot, friction_law. cbv zeta.
  rewrite (re_form A D eta m _ _ HA HD He) by (field; lra).
  destruct (Rleb _ _); unfold Rdiv; ring.
Qed.

Theorem gas_mono_np A D eta k L zeta K t_from t_out rho_n :
  0 < A -> 0 < D -> 0 < eta -> 0 < rho_n -> 0 < K -> 0 < t_from + t_out ->
  2 * log10 (D / k) + 57 / 50 <> 0 -> 0 <= L -> 0 <= zeta -> 0 < L + zeta ->
  strictly_increasing (gas_phi_np A D eta k L zeta K t_from t_out rho_n).
Proof.
  intros HA HD He Hrn HK Htm Hsing HL Hz HLz x y Hxy.
  rewrite !gas_phi_np_friction by assumption. apply Rmult_lt_compat_r; [lra|].
  apply friction_law_increasing; [ | exact HD | | lra | | exact HL | exact Hz | exact HLz | exact Hxy].
  - assert (0 < A ^ 2) by (apply pow_lt; exact HA).
    assert (0 < 27315000 * rho_n * A ^ 2) by (apply Rmult_lt_0_compat; [apply Rmult_lt_0_compat; lra | assumption]).
    apply Rmult_lt_0_compat; [apply Rdiv_lt_0_compat; lra | exact HK].
  - apply Rdiv_lt_0_compat; [exact HD | apply Rmult_lt_0_compat; assumption].
  - apply inv_sqr_pos. exact Hsing.
Qed.
