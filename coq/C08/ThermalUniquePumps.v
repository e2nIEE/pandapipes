(* C08 - thermal uniqueness for networks with circulation pumps (district-heating loops).

   ThermalUniquePipe.v excludes circulation-pump branches ([conducting] demands p_ident = false).  Their thermal row is
   the identity (C10: circ_pump_row_is_identity), so their outlet temperature is not solved for: it keeps the value the
   component wrote at pit creation (the flow temperature t_flow_k - a boundary value, not a start value).  With the
   hypothesis that the two states agree on the outlets of those branches, the uniqueness theorem extends to loops
   through pumps: [up] may run around cycles, only the infeed nodes cut them.
   (For pumps of type "p" the component writes TOUTINIT := TINIT of the flow junction - a start value; then the outlet
   hypothesis is an assumption about the start values.  Observed on the real code: such nets fail the infeed check and
   never converge, so the property makes no claim about them.)
   The pump-free theorem of PropsThermal.v is the case without identity rows; the theorem with pumps
   (PropsThermalPumps.v) is stated over the two predicates below. *)
From Coq Require Import Reals List.
From PP Require Import C10.Proofs C08.ThermalUniquePipe.
Open Scope R_scope.

(* flowing, in range; heat-exchanging parameters non-negative unless the row is an identity row *)
Definition conducting_or_pump (tw : bool) (n : nat) (pb : pbranch) : Prop :=
  p_flow tw pb = true /\ (p_from pb < n)%nat /\ (p_to pb < n)%nat /\
  (p_ident pb = false -> 0 <= p_alpha pb /\ 0 <= p_len pb /\ 0 <= p_do pb).

Definition same_hyd_pump (pb pb' : pbranch) : Prop :=
  same_hyd pb pb' /\ (p_ident pb = true -> p_tout pb = p_tout pb').

Lemma same_hyd_pump_same : forall pbs pbs', Forall2 same_hyd_pump pbs pbs' -> Forall2 same_hyd pbs pbs'.
Proof. intros pbs pbs' H. induction H as [|a b l l' [Hs _] _ IH]; constructor; assumption. Qed.

(* without identity rows [same_hyd_pump] asks no more than [same_hyd] *)
Lemma conducting_same_hyd_pump tw n pbs pbs' :
  Forall (conducting tw n) pbs -> Forall2 same_hyd pbs pbs' -> Forall2 same_hyd_pump pbs pbs'.
Proof.
  intros Hcond H. induction H as [|pb pb' l l' Hs _ IH]; constructor.
  - destruct (Forall_inv Hcond) as (_ & Hid & _). split; [exact Hs | congruence].
  - exact (IH (Forall_inv_tail Hcond)).
Qed.
