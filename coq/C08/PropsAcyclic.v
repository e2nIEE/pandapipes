(* C08 - property theorems: passive level networks have an acyclic flow graph (the [rank] hypothesis of
   thermal_start_values_do_not_matter_acyclic).  The lemmas are in C08/FlowAcyclic.v. *)
From Coq Require Import Reals List Lra Lia.
From PP Require Import C08.Unique C08.FlowAcyclic.
Import ListNotations.
Open Scope R_scope.

(* flow runs from the higher to the lower pressure in every passive level branch of a solution *)
Theorem flow_runs_downhill_in_passive_branches : forall n slack pfix load bs p ms b m,
  solves n slack pfix load bs p ms -> In (b, m) (combine bs ms) -> passive_law b ->
  (0 < m -> p (tn b) < p (fn b)) /\ (m < 0 -> p (fn b) < p (tn b)) /\ (m = 0 -> p (fn b) = p (tn b)).
Proof. exact passive_flow_runs_downhill. Qed.
Print Assumptions flow_runs_downhill_in_passive_branches.

(* hence a rank (number of nodes at higher pressure) strictly increases along the flow direction of every flowing branch *)
Theorem passive_flow_graph_has_a_rank : forall n slack pfix load bs p ms,
  solves n slack pfix load bs p ms -> in_range n bs -> Forall passive_law bs ->
  exists rank : nat -> nat, forall b m, In (b, m) (combine bs ms) ->
    (0 < m -> (rank (fn b) < rank (tn b))%nat) /\ (m < 0 -> (rank (tn b) < rank (fn b))%nat).
Proof. exact passive_flow_has_a_rank. Qed.
Print Assumptions passive_flow_graph_has_a_rank.

(* and no closed walk along flow directions exists *)
Theorem passive_network_has_no_flow_cycle : forall n slack pfix load bs p ms i,
  solves n slack pfix load bs p ms -> in_range n bs -> Forall passive_law bs ->
  ~ flow_walk (combine bs ms) i i.
Proof.
  intros n slack pfix load bs p ms i S Hr Hp Hw.
  destruct (passive_flow_has_a_rank _ _ _ _ _ _ _ S Hr Hp) as [rank Hrank].
  pose proof (flow_walk_ranked _ rank Hrank i i Hw). lia.
Qed.
Print Assumptions passive_network_has_no_flow_cycle.

(* non-vacuity: a two-node net (slack at 1 bar, a load of 1 at node 1, one branch with the law m |-> m) is a solution
   with a passive law *)
Theorem passive_solution_exists :
  let b := {| fn := 0; tn := 1; phi := fun m => m; cst := 0 |} in
  solves 2 (fun i => Nat.eqb i 0) (fun _ => 1) (fun _ => 1) [b] (fun i => if Nat.eqb i 0 then 1 else 0) [1] /\
  in_range 2 [b] /\ Forall passive_law [b].
Proof.
  intros b. split; [|split].
  - constructor.
    + reflexivity.
    + intros i Hi Hs. apply Nat.eqb_eq in Hs. subst. reflexivity.
    + intros i Hi Hs. destruct i as [|[|i]]; [discriminate| |lia]. simpl. unfold ind. simpl. lra.
    + constructor; [simpl; lra|constructor].
  - repeat constructor.
  - repeat constructor; unfold strictly_increasing; simpl; intros; lra.
Qed.
Print Assumptions passive_solution_exists.
