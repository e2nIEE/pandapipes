(* C08 - how sharply a converged residual determines a nearly stagnant flow.

   The turbulent branch law is c * m|m| (c > 0; plus, for Re > 1e-8, a laminar term c1 * m with c1 >= 0).  Near m = 0 the
   quadratic part has a double root, so a pressure residual of size eps pins the flow down only to sqrt(2 eps / c):

       | phi(m) - phi(m') | <= eps   ->   (m - m')^2 <= 2 eps / c           (and this is sharp up to the factor 2:
                                                                             m = sqrt(eps/c), m' = 0)

   This is the derivation behind the monitor's "stalled flow" allowance (tools/props/c08.py, compare): two converged
   runs may legitimately differ by ~sqrt(tol) in a flow that is (nearly) zero, although every pressure agrees to tol.
   With a laminar term of slope c1 > 0 the linear bound |m - m'| <= eps / c1 holds as well. *)
From Coq Require Import Reals Lra.
Open Scope R_scope.

Definition quad (m : R) : R := m * Rabs m.

(* the gap of m|m| over an ordered pair: monotonicity, strict monotonicity (KernelMono.v) and the bound below come from it *)
Lemma quad_gap_le : forall a b, b <= a -> (a - b) * (a - b) / 2 <= quad a - quad b.
Proof.
  intros a b H. pose proof (Rle_0_sqr (a + b)) as Hs. unfold Rsqr in Hs.
  unfold quad, Rabs. destruct (Rcase_abs a), (Rcase_abs b); nra.
Qed.

Lemma quad_mono : forall a b, a <= b -> quad a <= quad b.
Proof. intros a b H. pose proof (quad_gap_le b a H). nra. Qed.

(* for m' <= m both parts of the law grow from m' to m, so the residual bounds each of them *)
Lemma stalled_flow_sensitivity_le : forall c c1 eps m m',
  0 < c -> 0 <= c1 -> m' <= m ->
  Rabs ((c * quad m + c1 * m) - (c * quad m' + c1 * m')) <= eps ->
  (m - m') * (m - m') <= 2 * eps / c /\ c1 * Rabs (m - m') <= eps.
Proof.
  intros c c1 eps m m' Hc Hc1 Hle H. pose proof (quad_gap_le m m' Hle) as Hg.
  assert (Hq : 0 <= quad m - quad m') by (pose proof (Rle_0_sqr (m - m')) as Hs; unfold Rsqr in Hs; lra).
  assert (Hcq : 0 <= c * (quad m - quad m')) by (apply Rmult_le_pos; lra).
  assert (Hl : 0 <= c1 * (m - m')) by (apply Rmult_le_pos; lra).
  rewrite Rabs_pos_eq in H by lra. rewrite (Rabs_pos_eq (m - m')) by lra.
  split; [|lra].
  apply Rmult_le_reg_l with (r := c); [lra|].
  replace (c * (2 * eps / c)) with (2 * eps) by (field; lra). nra.
Qed.
