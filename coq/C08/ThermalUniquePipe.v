(* C08 - thermal uniqueness in pipeline form: two fixed points of the thermal system that solve_temperature
   assembles (C10/Model + the generated kernels Gen/KThermNp, KThermNb, KThermExpr, KHooksHeat), for the same
   hydraulic solution (same branches, same mass flows), coincide - whatever TINIT / TOUTINIT they started from.

   Hypotheses: temperature-independent heat capacity; every branch flows, is no circulation pump and has a
   non-negative loss coefficient, length and diameter (heat extraction Q and temperature lift TL are arbitrary);
   both states are fixed points; they agree at the infeed nodes (whose rows are the identity, C10); every node is
   downstream of an infeed node.  Outside the theorem: stagnant branches / regions (the open C08 findings),
   temperature-dependent heat capacity (the weights then depend on the solution).

   Here: the reduction to the graph theorem of ThermalUnique.v.  [edge_twin]: a branch of two fixed points gives a
   pair of [twin] edges; [twin_fixed_points_coincide]: with [twin] edges the two states coincide.  PropsThermalPumps.v
   puts the two together for networks with circulation pumps; [conducting] branches (PropsThermal.v) are the case
   without pumps. *)
From Coq Require Import Reals Lra List Bool.
From PP Require Import C10.Spec C10.Model C10.Proofs C10.Global C10.GlobalPipe C08.ThermalUnique.
Import ListNotations.
Open Scope R_scope.

(* the same branch of the same hydraulic solution; only the outlet temperature may differ *)
Definition same_hyd (pb pb' : pbranch) : Prop :=
  p_from pb = p_from pb' /\ p_to pb = p_to pb' /\ p_m pb = p_m pb' /\ p_alpha pb = p_alpha pb' /\
  p_do pb = p_do pb' /\ p_len pb = p_len pb' /\ p_qext pb = p_qext pb' /\ p_text pb = p_text pb' /\
  p_tl pb = p_tl pb' /\ p_ident pb = p_ident pb'.

Definition conducting (tw : bool) (n : nat) (pb : pbranch) : Prop :=
  p_flow tw pb = true /\ p_ident pb = false /\ 0 <= p_alpha pb /\ 0 <= p_len pb /\ 0 <= p_do pb /\
  (p_from pb < n)%nat /\ (p_to pb < n)%nat.

Lemma same_hyd_refl pb : same_hyd pb pb.
Proof. repeat split. Qed.

Lemma passive_conducting tw n lo hi pb : passive tw n lo hi pb -> conducting tw n pb.
Proof. intros (H1&H2&_&_&H3&H4&H5&H6&H7&_). repeat split; assumption. Qed.

Lemma same_hyd_graph tw pb pb' : same_hyd pb pb' ->
  p_fnc pb = p_fnc pb' /\ p_tnc pb = p_tnc pb' /\ p_flow tw pb = p_flow tw pb'.
Proof.
  intros (Hf & Ht & Hm & _). unfold p_fnc, p_tnc, p_sw, p_flow. rewrite Hf, Ht, Hm. auto.
Qed.

Lemma Forall2_map_nth {X Y} (P : X -> X -> Prop) (Q : Y -> Y -> Prop) (f g : X -> Y) : forall l l',
  Forall2 P l l' ->
  (forall k a b, nth_error l k = Some a -> nth_error l' k = Some b -> P a b -> Q (f a) (g b)) ->
  Forall2 Q (map f l) (map g l').
Proof.
  intros l l' H. induction H as [|a b l l' Hab _ IH]; intros HQ; simpl; constructor.
  - apply (HQ O a b); auto.
  - apply IH. intros k x y Hx Hy. apply (HQ (S k) x y); assumption.
Qed.

Section Indep.
  Variables (tw : bool) (cp : R -> R) (amb : R) (Tn Tn' : nat -> R).

  (* whatever is read off flow mask and flow-corrected end nodes of the assembled branches is independent of the
     temperatures they were assembled at *)
  Lemma flow_graph_indep (q : bool -> nat -> nat -> bool) pbs pbs' : Forall2 same_hyd pbs pbs' ->
    existsb (fun p => q (snd p) (fnc (fst p)) (tnc (fst p))) (bf tw cp amb Tn pbs)
    = existsb (fun p => q (snd p) (fnc (fst p)) (tnc (fst p))) (bf tw cp amb Tn' pbs').
  Proof.
    intros H. unfold bf. induction H as [|pb pb' l l' Hs _ IH]; [reflexivity|].
    cbn [map existsb fst snd]. rewrite IH. destruct (same_hyd_graph tw pb pb' Hs) as (Hf & Ht & Hfl).
    rewrite !fnc_asm_branch, !tnc_asm_branch, Hf, Ht, Hfl. reflexivity.
  Qed.

  Lemma node_flow_indep pbs pbs' i : Forall2 same_hyd pbs pbs' ->
    node_flow tw cp amb Tn pbs i = node_flow tw cp amb Tn' pbs' i.
  Proof. exact (flow_graph_indep (fun f a b => f && (Nat.eqb a i || Nat.eqb b i)) pbs pbs'). Qed.

  Lemma node_infeed_indep pbs pbs' i : Forall2 same_hyd pbs pbs' ->
    node_infeed tw cp amb Tn pbs i = node_infeed tw cp amb Tn' pbs' i.
  Proof.
    intros H. unfold node_infeed, g_infeed. f_equal; [|f_equal].
    - exact (flow_graph_indep (fun f a _ => f && Nat.eqb a i) pbs pbs' H).
    - exact (flow_graph_indep (fun f _ b => f && Nat.eqb b i) pbs pbs' H).
  Qed.
End Indep.

(* One branch at position k of two fixed points gives a pair of [twin] edges: an identity row (circulation pump) whose
   outlets agree with slope 0, a heat-exchanging row by the cooling law with slope exp(-alpha L pi d / (c |m|)). *)
Lemma edge_twin tw cp c amb Tn Tn' isT n pbs pbs' k pb pb' :
  0 < c -> (forall t, cp t = c) ->
  fixed_point tw cp amb Tn isT n pbs -> fixed_point tw cp amb Tn' isT n pbs' ->
  nth_error pbs k = Some pb -> nth_error pbs' k = Some pb' -> same_hyd pb pb' -> p_flow tw pb = true ->
  (p_ident pb = true -> p_tout pb = p_tout pb') ->
  (p_ident pb = false -> 0 <= p_alpha pb /\ 0 <= p_len pb /\ 0 <= p_do pb) ->
  twin Tn Tn' (edge_of tw cp Tn pb) (edge_of tw cp Tn' pb').
Proof.
  intros Hc Hcp Hfp Hfp' Hk Hk' Hs Hflow Hpump Hpar.
  assert (Hcbar : forall a b, cbar cp a b = c) by (intros; unfold cbar; rewrite !Hcp; lra).
  pose proof (same_hyd_graph tw pb pb' Hs) as (Hf & Ht & Hfl).
  destruct Hs as (_ & _ & Hm & Hal & Hdo & Hlen & HQ & Htx & Htl & Hid').
  unfold twin, edge_of; simpl. repeat split; auto.
  - unfold stream_w. rewrite !Hcbar, Hfl, Hm. reflexivity.
  - destruct (p_ident pb) eqn:Hid.
    + exists 0. split; [lra|]. rewrite (Hpump eq_refl). lra.
    + destruct (Hpar eq_refl) as (Ha & HL & Hd).
      destruct (branch_cooling_law_pipeline tw cp amb Tn isT n pbs k pb Hfp Hk Hid) as [Hlaw _].
      assert (Hid2 : p_ident pb' = false) by congruence.
      destruct (branch_cooling_law_pipeline tw cp amb Tn' isT n pbs' k pb' Hfp' Hk' Hid2) as [Hlaw' _].
      specialize (Hlaw Hflow). rewrite <- Hfl in Hlaw'. specialize (Hlaw' Hflow).
      rewrite Hcbar in Hlaw, Hlaw'. rewrite <- Hal, <- Hdo, <- Hlen, <- HQ, <- Htx, <- Htl, <- Hm, <- Hf in Hlaw'.
      pose proof (flows_pos _ (proj1 (p_flow_flows tw pb) Hflow)) as Hmpos.
      destruct (cooling_slope _ _ _ c _ Ha HL Hd Hc Hmpos) as [H0 H1].
      exists (exp (- (p_alpha pb * p_len pb * PI * p_do pb / (c * Rabs (p_m pb))))). split; [lra|].
      rewrite Hlaw, Hlaw'. unfold spec_T_out. ring.
Qed.

(* With [twin] edges, the graph theorem of ThermalUnique.v applies to the flow graph of the pipeline. *)
Theorem twin_fixed_points_coincide : forall tw cp c amb Tn Tn' isT n pbs pbs',
  0 < c -> (forall t, cp t = c) ->
  Forall2 same_hyd pbs pbs' ->
  fixed_point tw cp amb Tn isT n pbs ->
  fixed_point tw cp amb Tn' isT n pbs' ->
  Forall (fun pb => p_flow tw pb = true /\ (p_from pb < n)%nat /\ (p_to pb < n)%nat) pbs ->
  Forall2 (twin Tn Tn') (edges_of tw cp Tn pbs) (edges_of tw cp Tn' pbs') ->
  (forall i, (i < n)%nat -> node_infeed tw cp amb Tn pbs i = true -> Tn i = Tn' i) ->
  (forall i, (i < n)%nat -> up (node_infeed tw cp amb Tn pbs) (edges_of tw cp Tn pbs) i) ->
  (forall i, (i < n)%nat -> Tn i = Tn' i) /\
  Forall2 (fun pb pb' => p_tout pb = p_tout pb') pbs pbs'.
Proof.
  intros tw cp c amb Tn Tn' isT n pbs pbs' Hc Hcp Hsame Hfp Hfp' Hcond Htwin Hfeed Hup.
  rewrite Forall_forall in Hcond.
  assert (Hflow : forall pb, In pb pbs -> p_flow tw pb = true) by (intros pb Hp; apply (Hcond pb Hp)).
  pose proof (edges_of_in_range tw cp Tn n pbs (fun pb Hp => proj2 (Hcond pb Hp))) as H_range.
  pose proof (fun i (Hi : (i < n)%nat) => up_noninfeed_node_flow tw cp amb Tn pbs i Hflow (Hup i Hi)) as Hnf.
  assert (Hw : forall e, In e (edges_of tw cp Tn pbs) -> 0 < e_w e).
  { apply in_edges_of. intros pb Hp. apply stream_w_pos; [intros t; rewrite Hcp; exact Hc|exact (Hflow pb Hp)]. }
  assert (Hnodes : forall i, (i < n)%nat -> Tn i = Tn' i).
  { apply (graph_temperatures_unique n Tn Tn' (node_infeed tw cp amb Tn pbs)
             (edges_of tw cp Tn pbs) (edges_of tw cp Tn' pbs') Htwin H_range Hw Hfeed).
    - intros i Hi Hinf. rewrite gmix_mixsum.
      apply (node_mixing_law_pipeline tw cp amb Tn isT n pbs i Hfp Hi Hinf (Hnf i Hi Hinf)).
    - intros i Hi Hinf. rewrite gmix_mixsum.
      apply (node_mixing_law_pipeline tw cp amb Tn' isT n pbs' i Hfp' Hi).
      + rewrite <- (node_infeed_indep tw cp amb Tn Tn' pbs pbs' i Hsame). exact Hinf.
      + rewrite <- (node_flow_indep tw cp amb Tn Tn' pbs pbs' i Hsame). apply Hnf; assumption.
    - exact Hup. }
  split; [exact Hnodes|].
  pose proof (graph_outlets_unique n Tn Tn' (edges_of tw cp Tn pbs) (edges_of tw cp Tn' pbs') Htwin H_range Hnodes) as Ho.
  (* [Ho] is the claim read through [map edge_of]: e_tout (edge_of _ _ _ pb) is p_tout pb *)
  clear - Ho Hsame. unfold edges_of in Ho. revert Ho. induction Hsame as [|pb pb' l l' _ _ IH]; intros Ho; constructor.
  - inversion Ho; subst. assumption.
  - apply IH. inversion Ho; subst. assumption.
Qed.
