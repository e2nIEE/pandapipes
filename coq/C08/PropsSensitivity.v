(* C08 - property theorems: what "beyond the solver tolerance" means for a nearly stagnant flow.  The lemmas
   are in C08/Sensitivity.v.  These derive the "stalled flow" allowance of the C08 / C09 monitors. *)
From Coq Require Import Reals Lra.
From PP Require Import C08.Sensitivity.
Open Scope R_scope.

(* a residual of size eps in the branch law  c m|m| + c1 m  (c > 0 turbulent, c1 >= 0 laminar coefficient) determines the
   flow to sqrt(2 eps / c), and to eps / c1 when there is a laminar term *)
Theorem converged_residual_bounds_flow_difference : forall c c1 eps m m',
  0 < c -> 0 <= c1 -> 0 <= eps ->
  Rabs ((c * quad m + c1 * m) - (c * quad m' + c1 * m')) <= eps ->
  (m - m') * (m - m') <= 2 * eps / c /\ c1 * Rabs (m - m') <= eps.
Proof.
  intros c c1 eps m m' Hc Hc1 _ H. destruct (Rle_or_lt m' m) as [Hle|Hlt].
  - now apply stalled_flow_sensitivity_le.
  - rewrite Rabs_minus_sym in H. rewrite (Rabs_minus_sym m m').
    replace ((m - m') * (m - m')) with ((m' - m) * (m' - m)) by ring.
    apply stalled_flow_sensitivity_le; lra.
Qed.
Print Assumptions converged_residual_bounds_flow_difference.

(* no better bound than sqrt(eps / c) exists for the purely quadratic law: two flows that far apart have residuals
   within eps of each other *)
Theorem square_root_sensitivity_is_sharp : forall c eps, 0 < c -> 0 <= eps ->
  exists m m', Rabs ((c * quad m + 0 * m) - (c * quad m' + 0 * m')) <= eps /\ (m - m') * (m - m') = eps / c.
Proof.
  intros c eps Hc He. exists (sqrt (eps / c)), 0.
  assert (Hd : 0 <= eps / c) by (apply Rmult_le_pos; [lra|left; apply Rinv_0_lt_compat; lra]).
  pose proof (sqrt_pos (eps / c)) as Hs. pose proof (sqrt_sqrt _ Hd) as Hss.
  unfold quad. rewrite (Rabs_pos_eq _ Hs), Rabs_R0, Rminus_0_r. split; [|exact Hss].
  replace (c * (sqrt (eps / c) * sqrt (eps / c)) + 0 * sqrt (eps / c) - (c * (0 * 0) + 0 * 0))
    with (c * (sqrt (eps / c) * sqrt (eps / c))) by ring.
  rewrite Hss. replace (c * (eps / c)) with eps by (field; lra). rewrite Rabs_pos_eq; lra.
Qed.
Print Assumptions square_root_sensitivity_is_sharp.
