(* C08 - uniqueness of the temperature field (thermal clause of "start values do not matter").

   Graph form, over the flow graph of C10/Global.v: nodes 0..n-1, edges = flowing branches in flow direction.
   Two temperature fields T, T' with outlet temperatures given edge by edge ([es] for T, [es'] for T'):
     - the two edge lists describe the same branches with the same mixing weights (temperature-independent heat
       capacity), and every branch's outlet depends on its inlet through the same affine law with a slope in [0, 1]
       (the cooling law  T_out = T_ext + (T_in - T_ext) exp(-k) + TL - Q/(c m)  has slope exp(-k)),
     - both fields balance the inflows of every non-infeed node,
     - they agree at the infeed nodes (fixed feed temperatures),
     - every node is downstream of an infeed node.
   Then the fields coincide at every node and every outlet.  Proof: the difference field is a solution of the
   homogeneous problem (ambient 0, feeds 0); the maximum principle of C10/Global.v with lo = hi = 0 bounds it by 0.

   What the hypotheses exclude is exactly where the open C08 findings live: nodes that are *not* downstream of a
   feed (stagnant regions, whose temperatures the code leaves to numerical noise). *)
From Coq Require Import Reals Lra List.
From PP Require Import C10.Global.
Import ListNotations.
Open Scope R_scope.

Section ThermalUnique.
  Variable n : nat.
  Variables T T' : nat -> R.
  Variable infeed : nat -> bool.

  (* the same branch seen in the two solutions *)
  Definition twin (e e' : edge) : Prop :=
    e_from e = e_from e' /\ e_to e = e_to e' /\ e_w e = e_w e' /\
    exists a, 0 <= a <= 1 /\ e_tout e - e_tout e' = a * (T (e_from e) - T' (e_from e)).

  Definition Tdiff (i : nat) : R := T i - T' i.
  Definition diff_edge (p : edge * edge) : edge :=
    mkEdge (e_from (fst p)) (e_to (fst p)) (e_w (fst p)) (e_tout (fst p) - e_tout (snd p)) 0.
  Definition diff_edges (es es' : list edge) : list edge := map diff_edge (combine es es').

  Lemma gmix_diff : forall es es' i, Forall2 twin es es' ->
    gmix Tdiff i (diff_edges es es') = gmix T i es - gmix T' i es'.
  Proof.
    intros es es' i H. induction H as [|e e' l l' Ht _ IH]; simpl; [lra|].
    unfold diff_edges in IH. rewrite IH. destruct Ht as (_ & Hto & Hw & _). rewrite <- Hto, <- Hw.
    destruct (Nat.eqb (e_to e) i); unfold Tdiff; lra.
  Qed.

  (* what holds of the difference edge of every [twin] pair holds of every edge of [diff_edges] *)
  Lemma diff_edges_forall (P : edge -> Prop) : forall es es', Forall2 twin es es' ->
    (forall e e', In e es -> twin e e' -> P (diff_edge (e, e'))) -> forall d, In d (diff_edges es es') -> P d.
  Proof.
    intros es es' H. induction H as [|e e' l l' Ht _ IH]; intros HP d; simpl; [tauto|].
    intros [<-|Hin]; [apply HP; [left; reflexivity|exact Ht]|].
    apply IH; [|exact Hin]. intros x x' Hx. apply HP. right. exact Hx.
  Qed.

  Lemma in_diff_edges : forall es es' e, Forall2 twin es es' -> In e es ->
    exists e', In (diff_edge (e, e')) (diff_edges es es').
  Proof.
    intros es es' e H. induction H as [|x x' l l' _ _ IH]; simpl; [tauto|].
    intros [->|Hin]; [exists x'; left; reflexivity|].
    destruct (IH Hin) as [e' He']. exists e'. right. exact He'.
  Qed.

  Lemma up_diff_edges : forall es es' i, Forall2 twin es es' -> up infeed es i -> up infeed (diff_edges es es') i.
  Proof.
    intros es es' i H Hu. induction Hu as [j Hj|e He _ IH]; [apply up_feed; assumption|].
    destruct (in_diff_edges es es' e H He) as [e' Hd].
    apply (up_edge infeed (diff_edges es es') (diff_edge (e, e')) Hd). exact IH.
  Qed.

  Theorem graph_temperatures_unique : forall es es',
    Forall2 twin es es' ->
    (forall e, In e es -> (e_from e < n)%nat /\ (e_to e < n)%nat) ->
    (forall e, In e es -> 0 < e_w e) ->
    (forall i, (i < n)%nat -> infeed i = true -> T i = T' i) ->
    (forall i, (i < n)%nat -> infeed i = false -> gmix T i es = 0) ->
    (forall i, (i < n)%nat -> infeed i = false -> gmix T' i es' = 0) ->
    (forall i, (i < n)%nat -> up infeed es i) ->
    forall i, (i < n)%nat -> T i = T' i.
  Proof.
    intros es es' Htw Hrange Hw Hfeed Hmix Hmix' Hup i Hi.
    assert (Hdiff : 0 <= Tdiff i <= 0).
    { apply (global_bounds_nodes n Tdiff infeed (diff_edges es es') 0 0).
      - (* end nodes in range *)
        apply (diff_edges_forall _ es es' Htw). intros e e' He _. exact (Hrange e He).
      - (* positive weights *)
        apply (diff_edges_forall _ es es' Htw). intros e e' He _. exact (Hw e He).
      - (* feeds: the fields agree there *)
        intros j Hj Hinf. unfold Tdiff. rewrite (Hfeed j Hj Hinf). lra.
      - (* ambient of a difference edge: 0 *)
        apply (diff_edges_forall _ es es' Htw). intros e e' _ _. simpl. lra.
      - (* outlet between inlet and ambient: a * Tdiff(inlet) with 0 <= a <= 1 lies between Tdiff(inlet) and 0 *)
        apply (diff_edges_forall _ es es' Htw). intros e e' _ (_ & _ & _ & a & Ha & Hd). simpl. rewrite Hd.
        fold (Tdiff (e_from e)). unfold Rmin, Rmax. destruct (Rle_dec (Tdiff (e_from e)) 0); nra.
      - (* mixing: the difference of the two balances *)
        intros j Hj Hinf. rewrite (gmix_diff es es' j Htw), (Hmix j Hj Hinf), (Hmix' j Hj Hinf). lra.
      - (* downstream of a feed *)
        intros j Hj. apply up_diff_edges; auto.
      - exact Hi. }
    unfold Tdiff in Hdiff. lra.
  Qed.

  Theorem graph_outlets_unique : forall es es',
    Forall2 twin es es' ->
    (forall e, In e es -> (e_from e < n)%nat /\ (e_to e < n)%nat) ->
    (forall i, (i < n)%nat -> T i = T' i) ->
    Forall2 (fun e e' => e_tout e = e_tout e') es es'.
  Proof.
    intros es es' Htw. induction Htw as [|e e' l l' Ht _ IH]; intros Hrange Heq; constructor.
    - destruct Ht as (_ & _ & _ & a & _ & Hd). destruct (Hrange e (or_introl eq_refl)) as [Hf _].
      rewrite (Heq _ Hf) in Hd. lra.
    - apply IH; [intros x Hx; apply Hrange; right; exact Hx|exact Heq].
  Qed.
End ThermalUnique.
