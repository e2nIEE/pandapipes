(* C08 - property theorems, thermal clause: the converged temperature field does not depend on the start
   temperatures.  The lemmas are in C08/ThermalUnique.v (graph form, on the maximum principle of C10/Global.v),
   C08/ThermalUniquePipe.v (over the thermal system assembled from the generated kernels) and C08/Coupled.v; the
   pipeline theorem is the pump-free case of the theorem of C08/PropsThermalPumps.v. *)
From Coq Require Import Reals Lra List.
From PP Require Import C10.Proofs C10.Global C10.GlobalPipe C10.Example
                       C08.Unique C08.FlowAcyclic C08.ThermalUnique C08.ThermalUniquePipe C08.ThermalUniquePumps
                       C08.PropsThermalPumps C08.Coupled.
Import ListNotations.
Open Scope R_scope.

(* ---- 1. graph form: two temperature fields over the same flow graph with the same (temperature-independent)
        mixing weights, branch outlets affine in the inlet with a slope in [0, 1] ([twin]), equal feed temperatures,
        every node downstream of a feed: the fields coincide *)
Theorem thermal_graph_solution_unique : forall n T T' infeed es es',
  Forall2 (twin T T') es es' ->
  (forall e, In e es -> (e_from e < n)%nat /\ (e_to e < n)%nat) ->
  (forall e, In e es -> 0 < e_w e) ->
  (forall i, (i < n)%nat -> infeed i = true -> T i = T' i) ->
  (forall i, (i < n)%nat -> infeed i = false -> gmix T i es = 0) ->
  (forall i, (i < n)%nat -> infeed i = false -> gmix T' i es' = 0) ->
  (forall i, (i < n)%nat -> up infeed es i) ->
  (forall i, (i < n)%nat -> T i = T' i) /\ Forall2 (fun e e' => e_tout e = e_tout e') es es'.
Proof.
  intros n T T' infeed es es' Htw Hr Hw Hf Hm Hm' Hup.
  assert (H : forall i, (i < n)%nat -> T i = T' i) by (eapply graph_temperatures_unique; eauto).
  split; [exact H|]. eapply graph_outlets_unique; eauto.
Qed.
Print Assumptions thermal_graph_solution_unique.

(* ---- 2. pipeline form: two fixed points of the thermal system that solve_temperature assembles (generated numpy
        or numba kernels, [tw]) for the same hydraulic solution ([same_hyd]: everything but TOUTINIT equal), constant
        heat capacity, all branches flowing and passive up to heat extraction / temperature lift ([conducting]), equal
        temperatures at the infeed nodes, every node downstream of an infeed node: all node temperatures and all
        outlet temperatures coincide, i.e. TINIT / TOUTINIT start values (tfluid_k) cannot show in a converged result *)
Theorem thermal_start_values_do_not_matter : forall tw cp c amb Tn Tn' isT n pbs pbs',
  0 < c -> (forall t, cp t = c) ->
  Forall2 same_hyd pbs pbs' ->
  fixed_point tw cp amb Tn isT n pbs ->
  fixed_point tw cp amb Tn' isT n pbs' ->
  Forall (conducting tw n) pbs ->
  (forall i, (i < n)%nat -> node_infeed tw cp amb Tn pbs i = true -> Tn i = Tn' i) ->
  (forall i, (i < n)%nat -> up (node_infeed tw cp amb Tn pbs) (edges_of tw cp Tn pbs) i) ->
  (forall i, (i < n)%nat -> Tn i = Tn' i) /\
  Forall2 (fun pb pb' => p_tout pb = p_tout pb') pbs pbs'.
Proof.
  intros tw cp c amb Tn Tn' isT n pbs pbs' Hc Hcp Hsame Hfp Hfp' Hcond.
  apply (thermal_start_values_do_not_matter_with_circulation_pumps tw cp c amb Tn Tn' isT n pbs pbs' Hc Hcp
           (conducting_same_hyd_pump tw n pbs pbs' Hcond Hsame) Hfp Hfp').
  eapply Forall_impl; [|exact Hcond]. apply pump_free_hypothesis_is_a_special_case.
Qed.
Print Assumptions thermal_start_values_do_not_matter.

(* ---- 3. the same with the graph hypothesis in checkable form (all nodes touched by flow, acyclic flow graph) *)
Theorem thermal_start_values_do_not_matter_acyclic : forall tw cp c amb Tn Tn' isT n pbs pbs' (rank : nat -> nat),
  0 < c -> (forall t, cp t = c) ->
  Forall2 same_hyd pbs pbs' ->
  fixed_point tw cp amb Tn isT n pbs ->
  fixed_point tw cp amb Tn' isT n pbs' ->
  Forall (conducting tw n) pbs ->
  (forall i, (i < n)%nat -> node_infeed tw cp amb Tn pbs i = true -> Tn i = Tn' i) ->
  (forall i, (i < n)%nat -> node_flow tw cp amb Tn pbs i = true) ->
  (forall pb, In pb pbs -> (rank (p_fnc pb) < rank (p_tnc pb))%nat) ->
  (forall i, (i < n)%nat -> Tn i = Tn' i) /\
  Forall2 (fun pb pb' => p_tout pb = p_tout pb') pbs pbs'.
Proof.
  intros tw cp c amb Tn Tn' isT n pbs pbs' rank Hc Hcp Hsame Hfp Hfp' Hcond Hfeed Hflow Hrank.
  apply (thermal_start_values_do_not_matter tw cp c amb Tn Tn' isT n pbs pbs' Hc Hcp Hsame Hfp Hfp' Hcond Hfeed).
  rewrite Forall_forall in Hcond.
  apply (up_from_rank n (node_infeed tw cp amb Tn pbs) (edges_of tw cp Tn pbs) rank).
  - apply edges_of_in_range. intros pb Hp. destruct (Hcond pb Hp) as (_&_&_&_&_&Hr). exact Hr.
  - apply in_edges_of. exact Hrank.
  - intros i Hi Hnf. destruct (noninfeed_has_inflow tw cp amb Tn pbs i (Hflow i Hi) Hnf) as [pb [Hp [_ Ht]]].
    exists (edge_of tw cp Tn pb). split; [unfold edges_of; apply in_map; assumption|exact Ht].
Qed.
Print Assumptions thermal_start_values_do_not_matter_acyclic.

(* ---- 4. non-vacuity: the hypotheses of theorem 3 hold for the concrete four-node net of C10/Example.v (two feeds
        at 370 K and 280 K mixing to 325 K, one branch flowing against its declaration) *)
Theorem thermal_hypotheses_satisfiable : forall amb : R,
  0 < 4000 /\ (forall t, ex_cp t = 4000) /\ Forall2 same_hyd ex_pbs ex_pbs /\
  fixed_point true ex_cp amb ex_T ex_isT 4 ex_pbs /\
  Forall (conducting true 4) ex_pbs /\
  (forall i, (i < 4)%nat -> node_flow true ex_cp amb ex_T ex_pbs i = true) /\
  (forall pb, In pb ex_pbs -> (p_fnc pb < p_tnc pb)%nat).
Proof.
  intros amb. destruct example_passive_acyclic as (Hp & Hr & _).
  split; [lra|]. split; [reflexivity|]. split; [repeat constructor; apply same_hyd_refl|].
  split; [apply example_fixed_point|]. split; [|split; [intros; apply flow_ex; assumption|exact Hr]].
  rewrite Forall_forall in *. intros pb H. eapply passive_conducting. apply Hp. exact H.
Qed.
Print Assumptions thermal_hypotheses_satisfiable.

(* ---- 5. hydraulics and heat transfer composed: on a solution of a passive level network (C08/Unique.v model; laws
        strictly increasing, phi(0) = 0, no lift / height term) whose branches and flows the thermal branches match
        position by position, the flow directions are ranked by pressure, so the acyclicity hypothesis of theorem 3 is
        discharged: two thermal fixed points for that hydraulic solution coincide *)
Theorem hydraulic_solution_ranks_the_flow_directions : forall tw n slack pfix load bs p ms pbs,
  solves n slack pfix load bs p ms -> in_range n bs -> Forall passive_law bs ->
  Forall2 matches pbs (combine bs ms) ->
  Forall (fun pb => p_flow tw pb = true) pbs ->
  exists rank : nat -> nat, forall pb, In pb pbs -> (rank (p_fnc pb) < rank (p_tnc pb))%nat.
Proof.
  intros tw n slack pfix load bs p ms pbs S Hr Hp Hm Hfl.
  destruct (passive_flow_has_a_rank _ _ _ _ _ _ _ S Hr Hp) as [rank Hrank].
  exists rank. intros pb Hin. rewrite Forall_forall in Hfl.
  destruct (Forall2_In_l _ _ _ _ Hm Hin) as [[b m] [Hbm (Hf & Ht & Hmm)]]. simpl in Hf, Ht, Hmm.
  pose proof (proj1 (p_flow_flows tw pb) (Hfl pb Hin)) as Hflows.
  destruct (Hrank b m Hbm) as [Hpos Hneg].
  unfold p_fnc, p_tnc, p_sw. rewrite Hf, Ht.
  destruct (flowing_direction _ Hflows) as [[Hlt ->]|[Hgt ->]]; [apply Hneg | apply Hpos]; lra.
Qed.
Print Assumptions hydraulic_solution_ranks_the_flow_directions.

Theorem thermal_start_values_do_not_matter_on_passive_networks :
  forall tw cp c amb Tn Tn' isT n pbs pbs' slack pfix load bs p ms,
  solves n slack pfix load bs p ms -> in_range n bs -> Forall passive_law bs ->
  Forall2 matches pbs (combine bs ms) ->
  0 < c -> (forall t, cp t = c) ->
  Forall2 same_hyd pbs pbs' ->
  fixed_point tw cp amb Tn isT n pbs ->
  fixed_point tw cp amb Tn' isT n pbs' ->
  Forall (conducting tw n) pbs ->
  (forall i, (i < n)%nat -> node_infeed tw cp amb Tn pbs i = true -> Tn i = Tn' i) ->
  (forall i, (i < n)%nat -> node_flow tw cp amb Tn pbs i = true) ->
  (forall i, (i < n)%nat -> Tn i = Tn' i) /\
  Forall2 (fun pb pb' => p_tout pb = p_tout pb') pbs pbs'.
Proof.
  intros tw cp c amb Tn Tn' isT n pbs pbs' slack pfix load bs p ms S Hr Hp Hm Hc Hcp Hsame Hfp Hfp' Hcond Hfeed Hflow.
  assert (Hfl : Forall (fun pb => p_flow tw pb = true) pbs).
  { rewrite Forall_forall in *. intros pb H. destruct (Hcond pb H) as [Hf _]. exact Hf. }
  destruct (hydraulic_solution_ranks_the_flow_directions tw n slack pfix load bs p ms pbs S Hr Hp Hm Hfl) as [rank Hrank].
  apply (thermal_start_values_do_not_matter_acyclic tw cp c amb Tn Tn' isT n pbs pbs' rank); assumption.
Qed.
Print Assumptions thermal_start_values_do_not_matter_on_passive_networks.
