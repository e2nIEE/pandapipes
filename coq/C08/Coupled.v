(* C08 - hydraulics and heat transfer composed (theorem 5 of PropsThermal.v): the thermal branches [pbs] of C10 are
   matched position by position with the hydraulic branches of C08/Unique.v and their flows ([matches]), so that the
   pressure rank of C08/FlowAcyclic.v orders the flow directions the thermal system is assembled on. *)
From Coq Require Import Reals List.
From PP Require Import C10.Proofs C08.Unique.
Import ListNotations.
Open Scope R_scope.

Definition matches (pb : pbranch) (bm : branch * R) : Prop :=
  p_from pb = fn (fst bm) /\ p_to pb = tn (fst bm) /\ p_m pb = snd bm.

Lemma Forall2_In_l {X Y} (P : X -> Y -> Prop) l l' x : Forall2 P l l' -> In x l -> exists y, In y l' /\ P x y.
Proof.
  intros H. induction H as [|a b l l' Hab _ IH]; simpl; [tauto|].
  intros [->|Hin]; [exists b; auto|]. destruct (IH Hin) as [y [Hy Hp]]. exists y. auto.
Qed.
