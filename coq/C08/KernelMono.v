(* C08 - the branch law of a liquid pipe / valve, as the code computes it, is strictly increasing in the mass flow.

   T-tie: Gen/KHydIncompNp(Nb).v  = derivatives_hydraulic_incomp_np / _numba        (tools/translate/kernels.py)
          Gen/KCalcLambda.v       = calc_lambda with the default friction model: lambda = lambda_laminar + lambda_nikuradse
                                    (tools/translate/c09_kernels.py), both regenerated from the source on every run.

   phi(m) := (p_from_abs - p_to_abs + PL + rho g dh / 1e5) - load_vec(m, lambda(m))
   so that the residual vanishes iff  p_from_abs - p_to_abs + (PL + rho g dh / 1e5) = phi(m)   (the form of C08.Unique).
   Shape: phi(m) = c2 m|m| + [ |Re(m)| > 1e-8 ] c1 m  with c1 >= 0, c2 > 0; the laminar part is dropped by the code in the
   regularised region |Re| <= 1e-8 - phi is still strictly increasing there and across its border.  The gas law of
   C08/GasLaw.v has the same shape: both are [friction_law] up to constant factors, and its monotonicity is proved once. *)
From Coq Require Import Reals Bool Lra.
From PP Require Import Kern.RBool Gen.KHydIncompNp Gen.KHydIncompNb Gen.KCalcLambda C08.Unique C08.Sensitivity.
Open Scope R_scope.

Definition incomp_phi_np (A D eta k L zeta PL dl dh p_to p_from rho : R) (m : R) : R :=
  (p_from - p_to + PL + rho * (981 / 100) * dh / 100000)
  - hyd_incomp_np_load_vec A D (calc_lambda_incomp_np_lambda_tot A D eta k m) L zeta m PL dl dh p_to p_from rho.

Definition incomp_phi_nb (A D eta k L zeta PL dl dh p_to p_from rho : R) (m : R) : R :=
  (p_from - p_to + PL + rho * (981 / 100) * dh / 100000)
  - hyd_incomp_nb_load_vec A D (calc_lambda_incomp_nb_lambda_tot A D eta k m) L zeta m PL dl dh p_to p_from rho.

(* the residual is the branch law in the form used by the uniqueness theorem *)
Lemma incomp_residual_is_law_np : forall A D eta k L zeta PL dl dh p_to p_from rho m,
  hyd_incomp_np_load_vec A D (calc_lambda_incomp_np_lambda_tot A D eta k m) L zeta m PL dl dh p_to p_from rho = 0
  <-> p_from - p_to + (PL + rho * (981 / 100) * dh / 100000) = incomp_phi_np A D eta k L zeta PL dl dh p_to p_from rho m.
Proof. intros. unfold incomp_phi_np. split; intros H; lra. Qed.

Lemma incomp_residual_is_law_nb : forall A D eta k L zeta PL dl dh p_to p_from rho m,
  hyd_incomp_nb_load_vec A D (calc_lambda_incomp_nb_lambda_tot A D eta k m) L zeta m PL dl dh p_to p_from rho = 0
  <-> p_from - p_to + (PL + rho * (981 / 100) * dh / 100000) = incomp_phi_nb A D eta k L zeta PL dl dh p_to p_from rho m.
Proof. intros. unfold incomp_phi_nb. split; intros H; lra. Qed.

(* m |m| is strictly increasing: its gap is at least (y - x)^2 / 2 *)
Lemma msq_increasing x y : x < y -> Rabs x * x < Rabs y * y.
Proof.
  intros H. pose proof (quad_gap_le y x (Rlt_le _ _ H)) as Hg. unfold quad in Hg.
  assert (0 < (y - x) * (y - x)) by (apply Rmult_lt_0_compat; lra). lra.
Qed.

(* the regularised laminar part  [ |m| s > e ] c1 m  is non-decreasing *)
Lemma laminar_part_monotone s e c1 x y : 0 < s -> 0 <= c1 -> x < y ->
  (if Rleb (Rabs x * s) e then 0 else c1 * x) <= (if Rleb (Rabs y * s) e then 0 else c1 * y).
Proof.
  intros Hs Hc H.
  destruct (Rleb_spec (Rabs x * s) e) as [Hx|Hx]; destruct (Rleb_spec (Rabs y * s) e) as [Hy|Hy].
  - lra.
  - (* x inside, y outside: y must be positive *)
    assert (Hxy : Rabs x < Rabs y) by (apply Rmult_lt_reg_r with s; lra).
    apply Rmult_le_pos; [exact Hc|]. destruct (Rle_or_lt 0 y) as [Hy0|Hy0]; [exact Hy0|].
    rewrite (Rabs_left x), (Rabs_left y) in Hxy by lra. lra.
  - (* x outside, y inside: x must be negative *)
    assert (Hxy : Rabs y < Rabs x) by (apply Rmult_lt_reg_r with s; lra).
    destruct (Rle_or_lt x 0) as [Hx0|Hx0]; [nra|].
    rewrite (Rabs_pos_eq x), (Rabs_pos_eq y) in Hxy by lra. lra.
  - apply Rmult_le_compat_l; lra.
Qed.

(* What the liquid and the gas kernel both compute, up to constant factors: the pressure loss
   N m|m| (L lambda(m) / D + zeta)  with the friction factor  lambda(m) = [ Re > e ] 64 / Re + lnik  of calc_lambda
   at the Reynolds number Re = |m| s. *)
Definition friction_law (N L D zeta s e lnik m : R) : R :=
  N * (Rabs m * m) * (L * ((if Rleb (Rabs m * s) e then 0 else 64 / (Rabs m * s)) + lnik) / D + zeta).

(* 64 / Re cancels one factor |m|: the law is  c2 m|m| + c1 [ Re > e ] (64 / s) m *)
Lemma friction_law_form N L D zeta s e lnik m : 0 < s -> 0 <= e ->
  friction_law N L D zeta s e lnik m
  = N * (L * lnik / D + zeta) * (Rabs m * m) + N * (L / D) * (if Rleb (Rabs m * s) e then 0 else 64 / s * m).
Proof.
  intros Hs He.
  assert (Hc : (if Rleb (Rabs m * s) e then 0 else 64 / (Rabs m * s)) * (Rabs m * m)
               = if Rleb (Rabs m * s) e then 0 else 64 / s * m).
  { destruct (Rleb_spec (Rabs m * s) e) as [Hin|Hout]; [apply Rmult_0_l|].
    field. split; [lra|]. intros H0. rewrite H0 in Hout. lra. }
  rewrite <- Hc. unfold friction_law, Rdiv. ring.
Qed.

(* ... with c2 > 0 (some resistance: L + zeta > 0) and c1 >= 0 *)
Theorem friction_law_increasing N L D zeta s e lnik :
  0 < N -> 0 < D -> 0 < s -> 0 <= e -> 0 < lnik -> 0 <= L -> 0 <= zeta -> 0 < L + zeta ->
  strictly_increasing (friction_law N L D zeta s e lnik).
Proof.
  intros HN HD Hs He Hl HL Hz HLz x y Hxy. rewrite !friction_law_form by assumption.
  assert (HiD : 0 < / D) by (apply Rinv_0_lt_compat; exact HD).
  apply Rplus_lt_le_compat.
  - apply Rmult_lt_compat_l; [|apply msq_increasing; exact Hxy].
    apply Rmult_lt_0_compat; [exact HN|].
    replace (L * lnik / D) with (L * (lnik * / D)) by (unfold Rdiv; ring).
    assert (Ht : 0 < lnik * / D) by (apply Rmult_lt_0_compat; assumption).
    destruct (Rle_lt_or_eq_dec 0 L HL) as [HLp| <-]; [|lra].
    assert (0 < L * (lnik * / D)) by (apply Rmult_lt_0_compat; assumption). lra.
  - apply Rmult_le_compat_l.
    + apply Rmult_le_pos; [lra | apply Rmult_le_pos; lra].
    + apply laminar_part_monotone; [exact Hs | left; apply Rdiv_lt_0_compat; lra | exact Hxy].
Qed.

(* the laminar term of calc_lambda (numpy form of the test) in the shape used above; [re] is whatever the source writes
   for the Reynolds number |m| D / (eta A), which is not negative *)
Lemma re_form A D eta m re e : 0 < A -> 0 < D -> 0 < eta -> re = Rabs m * (D / (eta * A)) ->
  (if negb (Rleb (Rabs re) e) then 64 / re else 0)
  = (if Rleb (Rabs m * (D / (eta * A))) e then 0 else 64 / (Rabs m * (D / (eta * A)))).
Proof.
  intros HA HD He ->. rewrite if_negb, Rabs_pos_eq; [reflexivity|].
  apply Rmult_le_pos; [apply Rabs_pos | left; apply Rdiv_lt_0_compat; nra].
Qed.

Lemma inv_sqr_pos x : x <> 0 -> 0 < 1 / x ^ 2.
Proof. intros H. apply Rdiv_lt_0_compat; [lra|]. rewrite <- Rsqr_pow2. apply Rsqr_pos_lt. exact H. Qed.

(* the kernel subtracts the friction term from the pressure terms, and phi subtracts the result from the same terms *)
Lemma incomp_phi_np_friction A D eta k L zeta PL dl dh p_to p_from rho m : 0 < A -> 0 < D -> 0 < eta ->
  incomp_phi_np A D eta k L zeta PL dl dh p_to p_from rho m
  = friction_law (1 / (A ^ 2 * rho * 100000 * 2)) L D zeta (D / (eta * A)) (1 / 100000000)
                 (1 / ((- 2 * log10 (k / (371 / 100 * D))) ^ 2)) m.
Proof.
  intros HA HD He.
  unfold incomp_phi_np, hyd_incomp_np_load_vec, calc_lambda_incomp_np_lambda_tot, friction_law. cbv zeta.
  (* the Reynolds number is identified by field, the rest by ring: the order of operands in the source does not matter *)
  rewrite (re_form A D eta m _ _ HA HD He) by (field; lra).
  destruct (Rleb _ _); unfold Rdiv; ring.
Qed.

(* [x > t] (numba) and [~ (x <= t)] (numpy) are the same test, and nothing else differs *)
Lemma incomp_phi_nb_np A D eta k L zeta PL dl dh p_to p_from rho m :
  incomp_phi_nb A D eta k L zeta PL dl dh p_to p_from rho m = incomp_phi_np A D eta k L zeta PL dl dh p_to p_from rho m.
Proof.
  unfold incomp_phi_nb, incomp_phi_np, hyd_incomp_nb_load_vec, hyd_incomp_np_load_vec,
    calc_lambda_incomp_nb_lambda_tot, calc_lambda_incomp_np_lambda_tot. cbv zeta.
  rewrite Rltb_negb_Rleb. unfold Rdiv. ring.
Qed.

(* The branch law of a liquid pipe or valve with Nikuradse friction (numpy kernel) is strictly increasing in m:
   cross-section, diameter, viscosity, density, roughness positive, roughness not the singular value 3.71 D of the
   Nikuradse formula (k < D in every real pipe), length and loss coefficient non-negative and not both zero. *)
Theorem incomp_nikuradse_law_strictly_monotone :
  forall A D eta k L zeta PL dl dh p_to p_from rho,
    0 < A -> 0 < D -> 0 < eta -> 0 < rho -> 0 < k -> k <> 371 / 100 * D -> 0 <= L -> 0 <= zeta -> 0 < L + zeta ->
    strictly_increasing (incomp_phi_np A D eta k L zeta PL dl dh p_to p_from rho).
Proof.
  intros A D eta k L zeta PL dl dh p_to p_from rho HA HD He Hrho Hk Hkd HL Hz HLz x y Hxy.
  rewrite !incomp_phi_np_friction by assumption.
  apply friction_law_increasing; [ | exact HD | | lra | | exact HL | exact Hz | exact HLz | exact Hxy].
  - apply Rdiv_lt_0_compat; [lra|]. assert (0 < A ^ 2) by (apply pow_lt; exact HA).
    apply Rmult_lt_0_compat; [apply Rmult_lt_0_compat; [apply Rmult_lt_0_compat; assumption | lra] | lra].
  - apply Rdiv_lt_0_compat; [exact HD | apply Rmult_lt_0_compat; assumption].
  - apply inv_sqr_pos. assert (log10 (k / (371 / 100 * D)) <> 0); [|lra].
    apply log10_neq_0; [apply Rdiv_lt_0_compat; lra|].
    intros H1. apply Hkd. rewrite <- (Rmult_1_l (371 / 100 * D)), <- H1.
    unfold Rdiv. rewrite Rmult_assoc, Rinv_l, Rmult_1_r by lra. reflexivity.
Qed.

(* the hypotheses are satisfiable by an ordinary pipe: DN 100, 1 km, roughness 0.1 mm, water *)
Example monotone_hypotheses_satisfiable :
  let D := 1 / 10 in let A := 785 / 100000 in
  0 < A /\ 0 < D /\ 0 < (1 / 1000) /\ 0 < 998 /\ 0 < (1 / 10000) /\ (1 / 10000) <> 371 / 100 * D /\ 0 <= 1000 /\
  0 <= 2 /\ 0 < 1000 + 2.
Proof. cbv zeta. repeat split; lra. Qed.
