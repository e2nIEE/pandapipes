(* C08 - property theorem, thermal clause with circulation pumps (district-heating loops); hypotheses explained in
   C08/ThermalUniquePumps.v. *)
From Coq Require Import Reals List.
From PP Require Import C10.Proofs C10.Global C10.GlobalPipe C08.ThermalUnique C08.ThermalUniquePipe C08.ThermalUniquePumps.
Open Scope R_scope.

(* two fixed points of the assembled thermal system for the same hydraulic solution, constant heat capacity, all
   branches flowing; identity rows (circulation pumps: outlet = the flow temperature written at pit creation, a boundary
   value) agree on their outlets; equal temperatures at the infeed nodes; every node downstream of an infeed node - the
   flow graph may contain cycles through the pumps.  Then all node and outlet temperatures coincide. *)
Theorem thermal_start_values_do_not_matter_with_circulation_pumps : forall tw cp c amb Tn Tn' isT n pbs pbs',
  0 < c -> (forall t, cp t = c) ->
  Forall2 same_hyd_pump pbs pbs' ->
  fixed_point tw cp amb Tn isT n pbs ->
  fixed_point tw cp amb Tn' isT n pbs' ->
  Forall (conducting_or_pump tw n) pbs ->
  (forall i, (i < n)%nat -> node_infeed tw cp amb Tn pbs i = true -> Tn i = Tn' i) ->
  (forall i, (i < n)%nat -> up (node_infeed tw cp amb Tn pbs) (edges_of tw cp Tn pbs) i) ->
  (forall i, (i < n)%nat -> Tn i = Tn' i) /\
  Forall2 (fun pb pb' => p_tout pb = p_tout pb') pbs pbs'.
Proof.
  intros tw cp c amb Tn Tn' isT n pbs pbs' Hc Hcp Hsamep Hfp Hfp' Hcond.
  apply (twin_fixed_points_coincide tw cp c amb Tn Tn' isT n pbs pbs' Hc Hcp (same_hyd_pump_same _ _ Hsamep) Hfp Hfp').
  - eapply Forall_impl; [|exact Hcond]. intros pb (Hf & H1 & H2 & _). auto.
  - rewrite Forall_forall in Hcond.
    apply (Forall2_map_nth same_hyd_pump (twin Tn Tn') (edge_of tw cp Tn) (edge_of tw cp Tn') pbs pbs' Hsamep).
    intros k pb pb' Hk Hk' [Hs Hpump]. destruct (Hcond pb (nth_error_In _ _ Hk)) as (Hflow & _ & _ & Hpar).
    apply (edge_twin tw cp c amb Tn Tn' isT n pbs pbs' k); assumption.
Qed.
Print Assumptions thermal_start_values_do_not_matter_with_circulation_pumps.

(* it contains the pump-free theorem (which PropsThermal.v derives from it): every [conducting] branch is
   [conducting_or_pump] *)
Theorem pump_free_hypothesis_is_a_special_case : forall tw n pb, conducting tw n pb -> conducting_or_pump tw n pb.
Proof. intros tw n pb (H1&H2&H3&H4&H5&H6&H7). repeat split; auto. Qed.
Print Assumptions pump_free_hypothesis_is_a_special_case.
