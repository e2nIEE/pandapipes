(* Hand-written support for the generated kernel files (tools/translate/kernels.py):
   boolean comparisons on R, log10, and the reflection lemmas the proofs use.
   NaN is outside the real model: np.isnan translates to [false] (DESIGN 2.3). *)
From Coq Require Import Reals Bool Lra.
Open Scope R_scope.

Definition Rleb (a b : R) : bool := if Rle_dec a b then true else false.
Definition Rltb (a b : R) : bool := if Rlt_dec a b then true else false.
Definition Reqb (a b : R) : bool := if Req_EM_T a b then true else false.

(* np.log10 *)
Definition log10 (x : R) : R := ln x / ln 10.

Lemma Rleb_spec : forall a b, reflect (a <= b) (Rleb a b).
Proof. intros; unfold Rleb; destruct (Rle_dec a b); constructor; assumption. Qed.
Lemma Rltb_spec : forall a b, reflect (a < b) (Rltb a b).
Proof. intros; unfold Rltb; destruct (Rlt_dec a b); constructor; assumption. Qed.
Lemma Reqb_spec : forall a b, reflect (a = b) (Reqb a b).
Proof. intros; unfold Reqb; destruct (Req_EM_T a b); constructor; assumption. Qed.

Lemma Rleb_true : forall a b, Rleb a b = true <-> a <= b.
Proof. intros; symmetry; apply reflect_iff, Rleb_spec. Qed.
Lemma Rltb_true : forall a b, Rltb a b = true <-> a < b.
Proof. intros; symmetry; apply reflect_iff, Rltb_spec. Qed.
Lemma Reqb_true : forall a b, Reqb a b = true <-> a = b.
Proof. intros; symmetry; apply reflect_iff, Reqb_spec. Qed.

Lemma Rleb_false : forall a b, Rleb a b = false <-> b < a.
Proof. intros; rewrite <- not_true_iff_false, Rleb_true; split; lra. Qed.
Lemma Rltb_false : forall a b, Rltb a b = false <-> b <= a.
Proof. intros; rewrite <- not_true_iff_false, Rltb_true; split; lra. Qed.
Lemma Reqb_false : forall a b, Reqb a b = false <-> a <> b.
Proof. intros; rewrite <- not_true_iff_false, Reqb_true; reflexivity. Qed.

(* [x > t] (numba) and [~(x <= t)] (numpy isclose) are the same test *)
Lemma Rltb_negb_Rleb : forall a b, Rltb b a = negb (Rleb a b).
Proof. intros; destruct (Rltb_spec b a), (Rleb_spec a b); simpl; auto; lra. Qed.
Lemma Rleb_negb_Rltb : forall a b, Rleb a b = negb (Rltb b a).
Proof. intros; rewrite Rltb_negb_Rleb, negb_involutive; reflexivity. Qed.

Lemma Reqb_refl : forall a, Reqb a a = true.
Proof. intros; apply Reqb_true; reflexivity. Qed.
Lemma Reqb_sym : forall a b, Reqb a b = Reqb b a.
Proof.
  intros; destruct (Reqb_spec a b), (Reqb_spec b a); auto; subst; contradiction.
Qed.

(* a column compared with an integer literal *)
Lemma Reqb_IZR : forall a b : Z, Reqb (IZR a) (IZR b) = Z.eqb a b.
Proof.
  intros a b. destruct (Reqb_spec (IZR a) (IZR b)) as [E|E], (Z.eqb_spec a b) as [E'|E']; auto.
  - now apply eq_IZR in E.
  - now subst.
Qed.

(* a mask [t < |x|] (numba; numpy writes [~(|x| <= t)]) is on above t *)
Lemma Rltb_lt_Rabs t x : t < x -> Rltb t (Rabs x) = true.
Proof. intros H. apply Rltb_true. pose proof (RRle_abs x). lra. Qed.

Lemma ln10_pos : 0 < ln 10.
Proof. rewrite <- ln_1. apply ln_increasing; lra. Qed.
Lemma ln10_neq : ln 10 <> 0.
Proof. apply Rgt_not_eq, ln10_pos. Qed.
Lemma log10_mult a b : 0 < a -> 0 < b -> log10 (a * b) = log10 a + log10 b.
Proof. intros. unfold log10. rewrite ln_mult by assumption. field. exact ln10_neq. Qed.
Lemma log10_inv a : 0 < a -> log10 (/ a) = - log10 a.
Proof. intros. unfold log10. rewrite ln_Rinv by assumption. field. exact ln10_neq. Qed.
Lemma log10_Rpower10 x : log10 (Rpower 10 x) = x.
Proof. unfold log10, Rpower. rewrite ln_exp. field. exact ln10_neq. Qed.
Lemma log10_10 : log10 10 = 1.
Proof. unfold log10. field. exact ln10_neq. Qed.
Lemma log10_le a b : 0 < a -> a <= b -> log10 a <= log10 b.
Proof.
  intros Ha [Hlt | ->]; [| lra]. unfold log10. apply Rmult_le_compat_r.
  - left. apply Rinv_0_lt_compat. exact ln10_pos.
  - left. apply ln_increasing; assumption.
Qed.

Lemma log10_neq_0 x : 0 < x -> x <> 1 -> log10 x <> 0.
Proof.
  intros Hx H1. unfold log10, Rdiv. apply Rmult_integral_contrapositive_currified.
  - apply ln_neq_0; assumption.
  - apply Rinv_neq_0_compat, ln_neq_0; lra.
Qed.

(* case analysis tactic: destruct every comparison occurring in the goal, keeping the fact *)
Ltac rbool_cases :=
  repeat match goal with
  | |- context [Rleb ?a ?b] => destruct (Rleb_spec a b)
  | |- context [Rltb ?a ?b] => destruct (Rltb_spec a b)
  | |- context [Reqb ?a ?b] => destruct (Reqb_spec a b)
  end; simpl negb; simpl andb; simpl orb; cbv iota.

(* [ring] and [field] take [/ x], [Rabs x], [exp x], or [f x y] for a function variable f, as atoms.  Where the two sides
   of an equation write such an argument with its operands in a different order (two kernels regenerated from two
   sources, or a kernel against a hand-written form), [same_args f] makes one atom of them: whenever [f x] and [f y]
   (or [f a x] and [f a y]) both occur and [ring] proves y = x, y is replaced by x.  [same_atoms] does this for the
   functions the kernels use and for the function variables of the context (the fluid properties), from the inside
   outwards ([/ (a * b)] before [exp (c / (a * b))]); division is unfolded, [ring] does not know it.  Every pair of
   occurrences is compared, which is dear on a large goal: [ring_atoms] tries plain [ring] first. *)
Ltac same_args f :=
  repeat match goal with
  | |- context [f ?x] =>
      match goal with
      | |- context [f ?y] => tryif constr_eq x y then fail else replace y with x by (unfold Rdiv; ring)
      end
  | |- context [f ?a ?x] =>
      match goal with
      | |- context [f a ?y] => tryif constr_eq x y then fail else replace y with x by (unfold Rdiv; ring)
      end
  end.
Ltac same_atoms :=
  unfold Rdiv;
  repeat progress (same_args Rinv; same_args Rabs; same_args exp; same_args log10; same_args Rpower;
                   repeat match goal with
                          | f : R -> R |- _ => progress same_args f
                          | f : R -> R -> R |- _ => progress same_args f
                          end).
Ltac ring_atoms := unfold Rdiv; first [ring | same_atoms; ring].
