(* C19 - proofs.  Q throughout (stdlib QArith + Lqa's lra/nra, ring, field).
   What is proved about the table function goes through one fact, interp_on_piece: on the piece (p, q) of a
   strictly increasing table - the two end pieces extended to infinity - interp is the affine function through p
   and q; antideriv_on_piece is its counterpart for _antiderivative.  The integral laws come from difference_laws,
   the mixture bounds from weighted_sum_bounds. *)
From Coq Require Import QArith List Bool Lqa.
From PP Require Import C19.Model Gen.KFluidFns C19.Classes Gen.FluidData Gen.StdTypeData.
Import ListNotations.
Open Scope Q_scope.

Lemma Qlt_bool_iff a b : Qlt_bool a b = true <-> a < b.
Proof.
  unfold Qlt_bool. rewrite negb_true_iff, <- not_true_iff_false, Qle_bool_iff.
  split; [apply Qnot_le_lt | apply Qlt_not_le].
Qed.

Lemma Qlt_bool_false a b : Qlt_bool a b = false <-> b <= a.
Proof. unfold Qlt_bool. rewrite negb_false_iff. apply Qle_bool_iff. Qed.

Lemma Qle_bool_false a b : Qle_bool a b = false <-> b < a.
Proof. rewrite <- Qlt_bool_iff. unfold Qlt_bool. symmetry. apply negb_true_iff. Qed.

Lemma seg_compat p0 p1 x y : x == y -> seg p0 p1 x == seg p0 p1 y.
Proof. intro H. unfold seg. rewrite H. reflexivity. Qed.

Lemma seg_left p0 p1 : fst p0 < fst p1 -> seg p0 p1 (fst p0) == snd p0.
Proof. intro H. unfold seg. field. lra. Qed.

Lemma seg_right p0 p1 : fst p0 < fst p1 -> seg p0 p1 (fst p1) == snd p1.
Proof. intro H. unfold seg. field. lra. Qed.

Lemma seg_affine p0 p1 : fst p0 < fst p1 ->
  exists m k, forall x, seg p0 p1 x == m * x + k.
Proof.
  intros _. exists ((snd p1 - snd p0) / (fst p1 - fst p0)).
  exists (snd p0 - (snd p1 - snd p0) / (fst p1 - fst p0) * fst p0).
  intro x. unfold seg. ring.
Qed.

Lemma seg_lipschitz p0 p1 x y :
  seg p0 p1 x - seg p0 p1 y == (snd p1 - snd p0) / (fst p1 - fst p0) * (x - y).
Proof. unfold seg. ring. Qed.

Lemma inc_cons x0 p r : increasing_from x0 (p :: r) = true -> x0 < fst p /\ increasing_from (fst p) r = true.
Proof. simpl. rewrite andb_true_iff, Qlt_bool_iff. auto. Qed.

Lemma inc_In x0 ks p : increasing_from x0 ks = true -> In p ks -> x0 < fst p.
Proof.
  revert x0. induction ks as [|a r IH]; intros x0 H HI; [contradiction|].
  apply inc_cons in H. destruct H as [H1 H2].
  destruct HI as [->|HI]; auto. specialize (IH _ H2 HI). lra.
Qed.

Lemma inc_head_le p0 l p : increasing_from (fst p0) l = true -> In p (p0 :: l) -> fst p0 <= fst p.
Proof. intros H [->|HI]; [lra | apply Qlt_le_weak, (inc_In _ l); assumption]. Qed.

Lemma inc_app x0 pre p rest : increasing_from x0 (pre ++ p :: rest) = true -> increasing_from (fst p) rest = true.
Proof.
  revert x0. induction pre as [|a pre IH]; intros x0 H; apply inc_cons in H; destruct H as [_ H]; eauto.
Qed.

Lemma si_increasing p0 l : strictly_increasing (p0 :: l) = true -> increasing_from (fst p0) l = true.
Proof. destruct l; [discriminate | auto]. Qed.

Lemma si_consecutive ks pre p q post :
  ks = pre ++ p :: q :: post -> strictly_increasing ks = true -> fst p < fst q.
Proof.
  intros -> H. apply (inc_In _ (q :: post)); [|now left].
  destruct pre as [|a pre]; apply si_increasing in H; [exact H | exact (inc_app _ _ _ _ H)].
Qed.

(* x lies in the piece (p, q) of the table pre ++ p :: q :: post; the first piece extends to the left,
   the last one to the right *)
Definition in_piece (pre post : list knot) (p q : knot) (x : Q) : Prop :=
  (pre = [] \/ fst p <= x) /\ (post = [] \/ x <= fst q).

Lemma interp_from_first rest p0 p1 x :
  x <= fst p1 -> interp_from p0 p1 rest x == seg p0 p1 x.
Proof.
  intro H. destruct rest as [|p2 r]; simpl; [reflexivity|].
  apply Qle_bool_iff in H. rewrite H. reflexivity.
Qed.

(* interp1d stays on the segment left of a knot when x is the knot itself; moving on to the next segment
   gives the same value there, because both segments pass through the knot *)
Lemma interp_from_next p0 p1 p2 r x : fst p0 < fst p1 -> fst p1 < fst p2 -> fst p1 <= x ->
  interp_from p0 p1 (p2 :: r) x == interp_from p1 p2 r x.
Proof.
  intros H01 H12 Hx. simpl. destruct (Qle_bool x (fst p1)) eqn:E; [|reflexivity].
  apply Qle_bool_iff in E. assert (Hx1 : x == fst p1) by lra.
  rewrite interp_from_first by lra.
  rewrite (seg_compat p0 p1 _ _ Hx1), (seg_compat p1 p2 _ _ Hx1), seg_right, seg_left by assumption.
  reflexivity.
Qed.

Lemma interp_from_piece pre : forall p0 p1 rest p q post x,
  p0 :: p1 :: rest = pre ++ p :: q :: post -> increasing_from (fst p0) (p1 :: rest) = true ->
  in_piece pre post p q x -> interp_from p0 p1 rest x == seg p q x.
Proof.
  induction pre as [|a pre IH]; intros p0 p1 rest p q post x E Hinc [Hl Hr].
  - injection E as -> -> ->. destruct Hr as [->|Hr]; [reflexivity | now apply interp_from_first].
  - injection E as -> E. destruct Hl as [Hl|Hl]; [discriminate|].
    destruct rest as [|p2 r]; [destruct pre as [|? [|? ?]]; discriminate|].
    apply inc_cons in Hinc. destruct Hinc as [H01 Hinc].
    assert (Hp : fst p1 <= fst p) by (apply (inc_head_le _ _ _ Hinc); rewrite E; apply in_elt).
    rewrite interp_from_next by (lra || (apply (inc_In _ _ _ Hinc); now left)).
    apply (IH p1 p2 r p q post x E Hinc). split; [right|]; assumption.
Qed.

(* on its piece the table function is the affine function through the two knots *)
Lemma interp_on_piece ks pre p q post x :
  ks = pre ++ p :: q :: post -> strictly_increasing ks = true -> in_piece pre post p q x ->
  interp ks x == seg p q x.
Proof.
  intros E Hs Hp. destruct ks as [|p0 [|p1 r]]; try discriminate.
  exact (interp_from_piece pre p0 p1 r p q post x E Hs Hp).
Qed.

(* a knot is the left end of the piece after it or, if it is the last one, the right end of the last piece *)
Lemma interp_hits ks k x : strictly_increasing ks = true -> In k ks -> x == fst k -> interp ks x == snd k.
Proof.
  intros Hs Hk Hx. apply in_split in Hk. destruct Hk as [pre [post E]].
  destruct post as [|q post].
  - destruct pre as [|a pre _] using rev_ind; [subst ks; discriminate|].
    rewrite <- app_assoc in E. pose proof (si_consecutive ks pre a k [] E Hs) as Hak.
    rewrite (interp_on_piece ks pre a k [] x E Hs) by (split; [right; lra | now left]).
    rewrite (seg_compat _ _ _ _ Hx). now apply seg_right.
  - pose proof (si_consecutive ks pre k q post E Hs) as Hkq.
    rewrite (interp_on_piece ks pre k q post x E Hs) by (split; right; lra).
    rewrite (seg_compat _ _ _ _ Hx). now apply seg_left.
Qed.

Lemma antideriv_from_first acc p0 p1 rest g x : x < fst p1 ->
  antideriv_from acc p0 p1 rest g x == acc + (g x + snd p0) / 2 * (x - fst p0).
Proof.
  intro H. destruct rest as [|p2 r]; simpl; [reflexivity|].
  apply Qlt_bool_iff in H. rewrite H. reflexivity.
Qed.

Lemma antideriv_from_skip acc p0 p1 p2 r g x : fst p1 <= x ->
  antideriv_from acc p0 p1 (p2 :: r) g x =
  antideriv_from (acc + (snd p1 + snd p0) / 2 * (fst p1 - fst p0)) p1 p2 r g x.
Proof. intro H. simpl. apply Qlt_bool_false in H. now rewrite H. Qed.

Lemma cum_before_cons a pre p : pre <> [] \/ True ->
  cum_before (a :: pre) p == (snd (hd p pre) + snd a) / 2 * (fst (hd p pre) - fst a) + cum_before pre p.
Proof.
  intros _. unfold cum_before. destruct pre as [|b r]; simpl.
  - ring.
  - reflexivity.
Qed.

(* searchsorted-right puts a query that is the knot p1 itself on the segment after p1, where the partial
   trapezoid is empty: the value is the same as that of the full trapezoid over (p0, p1) *)
Lemma antideriv_from_upto acc p0 p1 rest g x :
  increasing_from (fst p1) rest = true -> (x == fst p1 -> g x == snd p1) -> rest = [] \/ x <= fst p1 ->
  antideriv_from acc p0 p1 rest g x == acc + (g x + snd p0) / 2 * (x - fst p0).
Proof.
  intros Hinc Hg Hx. destruct rest as [|p2 r]; [reflexivity|]. destruct Hx as [Hx|Hx]; [discriminate|].
  destruct (Qlt_le_dec x (fst p1)) as [Hlt|Hge]; [now apply antideriv_from_first|].
  assert (Hx1 : x == fst p1) by lra. apply inc_cons in Hinc. destruct Hinc as [H12 _].
  rewrite antideriv_from_skip, antideriv_from_first by lra. rewrite (Hg Hx1), Hx1. field.
Qed.

Lemma antideriv_from_piece pre : forall p0 p1 rest p q post acc g x,
  p0 :: p1 :: rest = pre ++ p :: q :: post -> increasing_from (fst p0) (p1 :: rest) = true ->
  (x == fst q -> g x == snd q) -> in_piece pre post p q x ->
  antideriv_from acc p0 p1 rest g x == acc + cum_before pre p + (g x + snd p) / 2 * (x - fst p).
Proof.
  induction pre as [|a pre IH]; intros p0 p1 rest p q post acc g x E Hinc Hg [Hl Hr];
    apply inc_cons in Hinc; destruct Hinc as [H01 Hinc].
  - injection E as -> -> ->. change (cum_before [] p) with 0.
    rewrite antideriv_from_upto; [ring | exact Hinc | exact Hg | exact Hr].
  - injection E as -> E. destruct Hl as [Hl|Hl]; [discriminate|].
    destruct rest as [|p2 r]; [destruct pre as [|? [|? ?]]; discriminate|].
    assert (Hp : fst p1 <= fst p) by (apply (inc_head_le _ _ _ Hinc); rewrite E; apply in_elt).
    rewrite antideriv_from_skip by lra.
    rewrite (IH p1 p2 r p q post _ g x E Hinc Hg) by (split; [right|]; assumption).
    rewrite cum_before_cons by (now right).
    (* E : p1 :: p2 :: r = pre ++ p :: q :: post, so the head of pre, or p if pre is empty, is p1 *)
    replace (@hd knot p pre) with p1 by (destruct pre; simpl in *; congruence).
    ring.
Qed.

Lemma antideriv_on_piece ks pre p q post x :
  ks = pre ++ p :: q :: post -> strictly_increasing ks = true -> in_piece pre post p q x ->
  interextra_antiderivative ks x == cum_before pre p + (seg p q x + snd p) / 2 * (x - fst p).
Proof.
  intros E Hs Hp. unfold interextra_antiderivative.
  pose proof (interp_on_piece ks pre p q post x E Hs Hp) as G.
  assert (Hq : x == fst q -> interp ks x == snd q).
  { apply interp_hits; [exact Hs|]. rewrite E. apply in_or_app. simpl. auto. }
  destruct ks as [|p0 [|p1 r]]; try discriminate.
  unfold antideriv. rewrite (antideriv_from_piece pre p0 p1 r p q post 0 _ x E Hs Hq Hp), G. ring.
Qed.

(* every get_at_integral_value is F upper - F lower for some F (convertible to that form): antisymmetry and
   additivity are facts about such differences, whatever F is *)
Lemma difference_laws (F : Q -> Q) :
  (forall a b, F a - F b == - (F b - F a)) /\ (forall a b c, (F a - F b) + (F b - F c) == F a - F c).
Proof. split; intros; ring. Qed.

Lemma polyint_length cs : length (polyint cs) = S (length cs).
Proof. induction cs; simpl; auto. Qed.

Lemma inject_S_nonzero n : ~ inject_Z (Z.of_nat (S n)) == 0.
Proof. unfold Qeq. simpl. discriminate. Qed.

Lemma polyint_derivative cs : Forall2 Qeq (poly_deriv (polyint cs)) cs.
Proof.
  induction cs as [|c r IH]; [constructor|].
  cbn [polyint]. pose proof (polyint_length r) as L.
  destruct (polyint r) as [|d t]; [discriminate|].
  constructor; [|exact IH].
  (* the divisor is abstracted so that field takes it as an atom *)
  rewrite L. generalize (inject_S_nonzero (length r)). generalize (inject_Z (Z.of_nat (S (length r)))).
  intros z NZ. field. exact NZ.
Qed.

(* powers-then-sum (pump) and Horner (poly1d) are the same polynomial *)
Lemma horner_acc cs x y : fold_left (fun y c => y * x + c) cs y == y * qpow x (length cs) + poly_desc cs x.
Proof.
  revert y. induction cs as [|c r IH]; intro y; simpl.
  - ring.
  - rewrite IH. ring.
Qed.

Lemma horner_is_poly cs x : poly_horner cs x == poly_desc cs x.
Proof. unfold poly_horner. rewrite horner_acc. ring. Qed.

Lemma shape_elementwise f q : shape_of_result (elementwise f q) = Some (shape_of_query q).
Proof. destruct q; simpl; auto. now rewrite map_length. Qed.

Lemma shape_constant v q : shape_of_result (constant_get v (Some q)) = Some (shape_of_query q).
Proof. destruct q; simpl; auto. now rewrite map_length. Qed.

Lemma masked_update_spec base mask value xs :
  masked_update base mask value xs = map (fun x => if mask x then value x else base) xs.
Proof.
  unfold masked_update. induction xs as [|x r IH]; simpl; auto.
  destruct (mask x); simpl; now rewrite IH.
Qed.

Lemma pump_array_length reg vs : length (pump_array reg vs) = length vs.
Proof. unfold pump_array. rewrite masked_update_spec. apply map_length. Qed.

Lemma qsum_cons a l : qsum (a :: l) = a + qsum l.
Proof. reflexivity. Qed.

Lemma qsum_scaled (f : Q * Q -> Q) s l : qsum (map (fun p => f p / s) l) == qsum (map f l) / s.
Proof.
  induction l as [|a r IH].
  - simpl. unfold Qdiv. ring.
  - simpl map. rewrite !qsum_cons, IH. unfold Qdiv. ring.
Qed.

(* sum over the round trip: sum_i (x_i M_i / s) / M_i = (sum_i x_i) / s *)
Lemma qsum_roundtrip s l : ~ s == 0 -> Forall (fun p => ~ snd p == 0) l ->
  qsum (map (fun p => fst p / snd p) (combine (map (fun p => fst p * snd p / s) l) (map snd l)))
  == qsum (map fst l) / s.
Proof.
  intros Hs Hm. induction Hm as [|a r Ha Hr IH].
  - simpl. field. exact Hs.
  - simpl map. simpl combine. simpl map. rewrite !qsum_cons, IH. simpl fst. simpl snd. field. split; assumption.
Qed.

Lemma roundtrip_elements s t l : t * s == 1 -> Forall (fun p => ~ snd p == 0) l ->
  Forall2 Qeq (map (fun p => fst p / snd p / t) (combine (map (fun p => fst p * snd p / s) l) (map snd l)))
              (map fst l).
Proof.
  intros Hts Hm.
  assert (Hs : ~ s == 0). { intro S. rewrite S in Hts. lra. }
  assert (Ht : ~ t == 0). { intro T. rewrite T in Hts. lra. }
  induction Hm as [|a r Ha Hr IH]; simpl; constructor; auto.
  setoid_replace (fst a * snd a / s / snd a / t) with (fst a / (t * s)) by (field; repeat split; assumption).
  rewrite Hts. field.
Qed.

Definition fractions_ok (l : list (Q * Q)) : Prop := Forall (fun p => 0 <= fst p) l.
Definition values_within (lo hi : Q) (l : list (Q * Q)) : Prop := Forall (fun p => lo <= snd p /\ snd p <= hi) l.

(* a sum weighted with non-negative weights lies between the bounds of what is weighted; [f] is the
   identity for the arithmetic and the viscosity rule and the inverse for the harmonic rule *)
Lemma weighted_sum_bounds (f : Q -> Q) lo hi l :
  fractions_ok l -> Forall (fun p => lo <= f (snd p) /\ f (snd p) <= hi) l ->
  lo * qsum (map fst l) <= qsum (map (fun p => fst p * f (snd p)) l) /\
  qsum (map (fun p => fst p * f (snd p)) l) <= hi * qsum (map fst l).
Proof.
  intros Hf Hv. induction l as [|a r IH].
  - simpl. lra.
  - inversion Hf as [|? ? Ha Hr]; inversion Hv as [|? ? [Hl Hh] Hvr]; subst.
    destruct (IH Hr Hvr) as [I1 I2]. simpl map. rewrite !qsum_cons.
    split; nra.
Qed.

Lemma Qinv_le a b : 0 < a -> a <= b -> / b <= / a.
Proof.
  intros Ha Hab. apply Qle_shift_inv_r; [lra|].
  setoid_replace 1 with (/ a * a) by (field; lra).
  apply Qmult_le_l; [now apply Qinv_lt_0_compat | exact Hab].
Qed.

Lemma inverse_within lo hi s : 0 < lo -> lo <= hi -> / hi <= s -> s <= / lo -> lo <= 1 / s /\ 1 / s <= hi.
Proof.
  intros Hlo Hhi A B.
  pose proof (Qinv_lt_0_compat hi ltac:(lra)) as Ih.
  pose proof (Qmult_inv_r lo ltac:(lra)) as El. pose proof (Qmult_inv_r hi ltac:(lra)) as Eh.
  split; [apply Qle_shift_div_l | apply Qle_shift_div_r]; nra.
Qed.

(* well-formedness of the generated library data (Gen/FluidData.v, Gen/StdTypeData.v); whether a table satisfies
   it is decided by evaluation *)
Definition table_ok (t : list knot) : bool := strictly_increasing t.

Definition fluid_ok (f : fluid_rec) : bool :=
  forallb table_ok (fluid_tables f) && Qlt_bool 0 (f_molar_mass f) &&
  match f_hhv f with Some h => Qlt_bool 0 h | None => true end &&
  match f_lhv f, f_hhv f with Some l, Some h => Qlt_bool 0 l && Qle_bool l h | Some _, None => false | _, _ => true end.

Definition component_ok (c : component_rec) : bool :=
  table_ok (c_density c) && table_ok (c_viscosity c) && table_ok (c_heat_capacity c) && Qlt_bool 0 (c_molar_mass c).

Definition pump_ok (p : pump_rec) : bool :=
  distinct_abscissae (p_points p) && Nat.ltb (p_degree p) (length (p_points p)).
Definition pipe_ok (s : pipe_rec) : bool :=
  match s_inner_diameter_mm s with
  | Some d => Qlt_bool 0 d && match s_outer_diameter_mm s with Some o => Qle_bool d o | None => true end
  | None => false end &&
  match s_k_mm s with Some k => Qle_bool 0 k | None => true end.

Lemma fluid_library_ok : forallb fluid_ok fluid_library = true.
Proof. vm_compute. reflexivity. Qed.

Lemma fluid_ok_of f : In f fluid_library ->
  forallb table_ok (fluid_tables f) = true /\ match f_hhv f with Some h => Qlt_bool 0 h | None => true end = true.
Proof.
  intro Hf. pose proof (proj1 (forallb_forall _ _) fluid_library_ok f Hf) as H. unfold fluid_ok in H.
  rewrite !andb_true_iff in H. tauto.
Qed.

Lemma library_hhv_lemma f h : In f fluid_library -> f_hhv f = Some h -> 0 < h.
Proof.
  intros Hf Hh. destruct (fluid_ok_of f Hf) as [_ H]. rewrite Hh in H. now apply Qlt_bool_iff.
Qed.

(* all that the copy of the library parameters into a created pipe needs of a row of Pipe.csv: the three plain
   columns are given, and the two heat transfer values are not both given *)
Definition row_copied (s : pipe_rec) : bool :=
  match s_inner_diameter_mm s, s_outer_diameter_mm s, s_k_mm s with Some _, Some _, Some _ => true | _, _, _ => false end &&
  match s_u_w_per_mk s, s_u_w_per_m2k s with Some _, Some _ => false | _, _ => true end.

Lemma pipe_rows_copied : forallb row_copied pipe_library = true.
Proof. vm_compute. reflexivity. Qed.

(* evaluated by the correspondence run (tools/props/c19.py) on each library table next to the knots call_lib
   holds: the loaded numbers are the doubles nearest to the decimal text *)
Fixpoint table_loaded_ok (lib obs : list knot) : bool :=
  match lib, obs with
  | [], [] => true
  | k :: r, o :: s => nearest_double_b (fst k) (fst o) && nearest_double_b (snd k) (snd o) && table_loaded_ok r s
  | _, _ => false
  end.
