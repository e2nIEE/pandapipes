(* C05 - proofs about the driver / stage / pipeflow model.  All statements are for arbitrary
   oracles (observation sequences), budgets, tolerances and prior net states. *)
From Coq Require Import String QArith Qabs Qminmax List Bool Lia.
From PP Require Import C05.Model.
Import ListNotations.
Open Scope nat_scope.

Definition prev_errs (o : obs) (st : state) : list fl :=
  match s_hist st with [] => o_errs o | p :: _ => p end.

Lemma step_niter cfg o st : s_niter (step cfg o st) = S (s_niter st).
Proof. unfold step. destruct (finalize cfg o st) as [[c a] r]. reflexivity. Qed.

Lemma step_hist cfg o st : s_hist (step cfg o st) = o_errs o :: s_hist st.
Proof. unfold step. destruct (finalize cfg o st) as [[c a] r]. reflexivity. Qed.

Lemma step_alpha cfg o st :
  s_alpha (step cfg o st) =
  match c_meth cfg with
  | Automatic => damp (s_alpha st) (all_true (increased (o_errs o) (prev_errs o st)))
  | _ => s_alpha st
  end.
Proof.
  unfold step, finalize, prev_errs. destruct (c_meth cfg); simpl; auto.
  destruct (negb _); reflexivity.
Qed.

Lemma step_rest cfg o st :
  hd [] (s_rest (step cfg o st)) =
  match c_meth cfg with
  | Automatic => firstn (c_nrestore cfg) (increased (o_errs o) (prev_errs o st))
  | _ => []
  end.
Proof.
  unfold step, finalize, prev_errs. destruct (c_meth cfg); simpl; auto.
  destruct (negb _); reflexivity.
Qed.

Lemma step_conv cfg o st :
  s_conv (step cfg o st) =
  match c_meth cfg with
  | Automatic => Qeq_bool (damp (s_alpha st) (all_true (increased (o_errs o) (prev_errs o st)))) 1 && tol_test cfg o
  | _ => tol_test cfg o
  end.
Proof.
  unfold step, finalize, prev_errs. destruct (c_meth cfg); simpl; auto.
  destruct (Qeq_bool _ 1); reflexivity.
Qed.

Lemma step_conv_true cfg o st :
  s_conv (step cfg o st) = true ->
  tol_test cfg o = true /\ (c_meth cfg = Automatic -> (s_alpha (step cfg o st) == 1)%Q).
Proof.
  rewrite step_conv, step_alpha. destruct (c_meth cfg); intros H; [|split; [auto|discriminate]..].
  apply andb_true_iff in H. destruct H. split; auto. intros _. now apply Qeq_bool_iff.
Qed.

(* what holds at the start and is kept by every iteration from an unconverged state holds at the end *)
Lemma nr_loop_inv (P : state -> Prop) cfg orc :
  (forall st, s_conv st = false -> P st -> P (step cfg (orc st) st)) ->
  forall fuel st, P st -> P (nr_loop fuel cfg orc st).
Proof.
  intros Hs. induction fuel as [|f IH]; intros st H; simpl; auto.
  destruct (s_conv st) eqn:E; auto.
Qed.

(* the loop ends either in its start state or right after a step *)
Lemma nr_loop_last fuel cfg orc st :
  nr_loop fuel cfg orc st = st \/
  exists prev, s_conv prev = false /\ nr_loop fuel cfg orc st = step cfg (orc prev) prev.
Proof.
  apply (nr_loop_inv (fun x => x = st \/ exists prev, s_conv prev = false /\ x = step cfg (orc prev) prev)); eauto.
Qed.

Lemma nr_loop_budget fuel : forall cfg orc st,
  s_niter (nr_loop fuel cfg orc st) <= s_niter st + fuel /\
  (s_conv (nr_loop fuel cfg orc st) = false -> s_niter (nr_loop fuel cfg orc st) = s_niter st + fuel).
Proof.
  induction fuel as [|f IH]; intros cfg orc st; simpl.
  - split; intros; lia.
  - destruct (s_conv st) eqn:E.
    + split; [lia | intros H; congruence].
    + destruct (IH cfg orc (step cfg (orc st) st)) as [H1 H2]. rewrite step_niter in *. split.
      * lia.
      * intros H. rewrite (H2 H). lia.
Qed.

Definition errs_within (errs tols : list fl) : Prop :=
  forall i e, nth_error errs i = Some e -> exists t, nth_error tols i = Some t /\ fle e t = true.

Lemma errs_ok_within : forall errs tols,
  errs_ok errs tols = true -> length errs <= length tols -> errs_within errs tols.
Proof.
  unfold errs_ok, errs_within. induction errs as [|e errs IH]; intros tols H L i e0 Hn.
  - destruct i; discriminate.
  - destruct tols as [|t tols]; [simpl in L; lia|]. simpl in H. apply andb_true_iff in H. destruct H as [H0 H1].
    destruct i as [|i]; simpl in Hn.
    + inversion Hn; subst. exists t. split; auto.
    + simpl in L. destruct (IH tols H1 ltac:(lia) i e0 Hn) as [t' [Ht Hle]]. exists t'. split; auto.
Qed.

Lemma nan_never_within e t : e = NaN -> fle e t = false.
Proof. intros ->. reflexivity. Qed.

Lemma inf_never_within_finite t : fle PInf (Fin t) = false.
Proof. reflexivity. Qed.

Definition on_ladder (a : Q) : Prop := a = 1%Q \/ a = (1 # 10)%Q \/ a = (1 # 100)%Q.

Lemma damp_ladder a b : on_ladder a -> on_ladder (damp a b).
Proof.
  intros [-> | [-> | ->]]; destruct b; vm_compute; auto.
Qed.

Lemma damp_decreases_only_if_all_grew a b : on_ladder a -> (damp a b < a)%Q -> b = true.
Proof.
  intros [-> | [-> | ->]]; destruct b; auto; vm_compute; intros H; discriminate.
Qed.

Lemma damp_recovers a : on_ladder a -> (damp a false == Qmin 1 (a * (10 # 1)))%Q.
Proof. intros [-> | [-> | ->]]; vm_compute; reflexivity. Qed.

Lemma damp_down a : on_ladder a -> (damp a true == Qmax (1 # 100) (a / (10 # 1)))%Q.
Proof. intros [-> | [-> | ->]]; vm_compute; reflexivity. Qed.

Lemma step_on_ladder cfg o st : on_ladder (s_alpha st) -> on_ladder (s_alpha (step cfg o st)).
Proof. intros L. rewrite step_alpha. destruct (c_meth cfg); auto using damp_ladder. Qed.

Lemma nth_error_map2 {A B C} (f : A -> B -> C) d : forall a b i,
  nth_error (map2 f a b) i = Some d <->
  exists x y, nth_error a i = Some x /\ nth_error b i = Some y /\ d = f x y.
Proof.
  induction a as [|x a IH]; intros [|y b] [|i]; simpl; try apply IH;
    (split; [intros H | intros (x' & y' & H1 & H2 & ->)]; try discriminate).
  - inversion H. eauto.
  - now inversion H1; inversion H2.
Qed.

Lemma nth_error_firstn {A} : forall n (l : list A) i, nth_error (firstn n l) i = if Nat.ltb i n then nth_error l i else None.
Proof.
  induction n as [|n IH]; intros [|x l] [|i]; simpl; auto.
  - now destruct (Nat.ltb (S i) (S n)).
  - apply IH.
Qed.

Lemma restored_iff cfg o st i :
  nth_error (hd [] (s_rest (step cfg o st))) i = Some true <->
  (c_meth cfg = Automatic /\ i < c_nrestore cfg /\
   exists e p, nth_error (o_errs o) i = Some e /\ nth_error (prev_errs o st) i = Some p /\ fgt e p = true).
Proof.
  rewrite step_rest. destruct (c_meth cfg) eqn:M;
    [|split; [destruct i; discriminate | intros [H _]; discriminate]..].
  rewrite nth_error_firstn. destruct (Nat.ltb i (c_nrestore cfg)) eqn:E.
  - apply Nat.ltb_lt in E. unfold increased. rewrite nth_error_map2. split.
    + intros [x [y [H1 [H2 H3]]]]. split; auto. split; auto. exists x, y. auto.
    + intros [_ [_ [e [p [H1 [H2 H3]]]]]]. exists e, p. auto.
  - apply Nat.ltb_ge in E. split; [discriminate | intros [_ [H _]]; lia].
Qed.

Lemma fgt_irrefl e : fgt e e = false.
Proof.
  destruct e; simpl; auto. unfold fgt, flt. apply negb_false_iff, Qle_bool_iff, Qle_refl.
Qed.

(* first iteration: nothing is rejected (error[0] > error[-1] compares an entry with itself) *)
Lemma first_iteration_rejects_nothing cfg o a0 c0 i :
  nth_error (hd [] (s_rest (step cfg o (init_state c0 a0)))) i <> Some true.
Proof.
  intros H. apply restored_iff in H. destruct H as [_ [_ [e [p [H1 [H2 H3]]]]]].
  unfold prev_errs in H2. simpl in H2. rewrite H1 in H2. inversion H2; subst. rewrite fgt_irrefl in H3. discriminate.
Qed.

Lemma fle_trans a b t : fle a b = true -> fle b (Fin t) = true -> fle a (Fin t) = true.
Proof.
  destruct a, b; simpl; intros H1 H2; try discriminate; auto.
  apply Qle_bool_iff in H1. apply Qle_bool_iff in H2. apply Qle_bool_iff. eapply Qle_trans; eauto.
Qed.

Lemma fle_total a b : a <> NaN -> b <> NaN -> fle a b = false -> fle b a = true.
Proof.
  destruct a, b; simpl; intros Ha Hb H; try congruence; auto.
  apply Qle_bool_iff. destruct (Qlt_le_dec q0 q) as [L | L].
  - now apply Qlt_le_weak.
  - apply Qle_bool_iff in L. congruence.
Qed.

(* np.max: the result is NaN or one of the two, and then the other one is below it *)
Lemma nanmax2_le acc x t :
  fle (nanmax2 acc x) (Fin t) = true -> fle acc (Fin t) = true /\ fle x (Fin t) = true.
Proof.
  assert (M : nanmax2 acc x = NaN \/ nanmax2 acc x = acc /\ fle x acc = true
              \/ nanmax2 acc x = x /\ fle acc x = true).
  { unfold nanmax2, fge. destruct (fle x acc) eqn:G; [destruct acc, x; auto|].
    destruct acc, x; auto; right; right; split; auto; apply fle_total; auto; discriminate. }
  destruct M as [-> | [[-> G] | [-> G]]]; [discriminate| |]; eauto using fle_trans.
Qed.

Lemma fold_nanmax_le t : forall l acc,
  fle (fold_left nanmax2 l acc) (Fin t) = true ->
  fle acc (Fin t) = true /\ Forall (fun x => fle x (Fin t) = true) l.
Proof.
  induction l as [|x l IH]; intros acc H; simpl in *; auto.
  destruct (IH _ H) as [H1 H2]. apply nanmax2_le in H1. destruct H1. split; auto.
Qed.

Lemma reduce_nanmax_le t l :
  fle (reduce nanmax2 l) (Fin t) = true -> Forall (fun x => fle x (Fin t) = true) l.
Proof.
  destruct l as [|h l]; [constructor|]. intros H. simpl in H. apply fold_nanmax_le in H. destruct H. auto.
Qed.

Definition change_within (t : Q) (a b : fl) : Prop :=
  exists d, fsub a b = Fin d /\ (Qabs d <= t)%Q.

Lemma fabs_le_fin x t : fle (fabs x) (Fin t) = true -> exists d, x = Fin d /\ (Qabs d <= t)%Q.
Proof.
  destruct x; simpl; intros H; try discriminate. exists q. split; auto. now apply Qle_bool_iff.
Qed.

Lemma forall_map2_change t : forall new old,
  length new = length old ->
  Forall (fun x => fle x (Fin t) = true) (map fabs (map2 fsub new old)) ->
  Forall2 (change_within t) new old.
Proof.
  induction new as [|a new IH]; intros old L H; destruct old as [|b old]; simpl in *; try discriminate; auto.
  inversion H; subst. constructor.
  - apply fabs_le_fin in H2. exact H2.
  - apply IH; auto.
Qed.

(* a NaN change anywhere makes the error NaN, whatever the shape of the result list *)
Lemma fold_nanmax_nan : forall l, fold_left nanmax2 l NaN = NaN.
Proof. induction l as [|x l IH]; simpl; auto. Qed.

Lemma fold_nanmax_in_nan : forall l acc, In NaN l -> fold_left nanmax2 l acc = NaN.
Proof.
  induction l as [|x l IH]; intros acc H; simpl in *; [contradiction|].
  destruct H as [-> | H].
  - assert (E : nanmax2 acc NaN = NaN) by (destruct acc; reflexivity). rewrite E. apply fold_nanmax_nan.
  - now apply IH.
Qed.

Lemma reduce_nanmax_nan l : In NaN l -> reduce nanmax2 l = NaN.
Proof.
  destruct l as [|h l]; [contradiction|]. simpl.
  intros [-> | H]; [apply fold_nanmax_nan | now apply fold_nanmax_in_nan].
Qed.

Lemma nan_change_gives_nan_error new old :
  In NaN (map2 fsub new old) -> err_of (new, old) = NaN.
Proof.
  intros H. apply reduce_nanmax_nan. apply in_map_iff. exists NaN. split; auto.
Qed.

(* the update lines: a NaN in the solution of the linear system makes the error NaN *)
Lemma upd_nth alpha : forall old x i o xi, nth_error old i = Some o -> nth_error x i = Some xi ->
  nth_error (map2 fsub (upd alpha old x) old) i = Some (fsub (fsub o (fscale alpha xi)) o).
Proof.
  unfold upd. induction old as [|o0 old IH]; intros x i o xi Ho Hx; [destruct i; discriminate|].
  destruct x as [|x0 x]; [destruct i; discriminate|]. destruct i as [|i]; simpl in *.
  - inversion Ho; inversion Hx; subst. reflexivity.
  - now apply IH.
Qed.

Lemma nan_in_solution_gives_nan_error alpha old x i o :
  nth_error old i = Some o -> nth_error x i = Some NaN -> err_of (upd alpha old x, old) = NaN.
Proof.
  intros Ho Hx. apply nan_change_gives_nan_error.
  pose proof (upd_nth alpha old x i o NaN Ho Hx) as H. simpl in H.
  apply nth_error_In in H. destruct o; exact H.
Qed.

(* finite results: a change within a finite tolerance is a difference of two numbers *)
Definition is_num (x : fl) : Prop := exists q, x = Fin q.

Lemma change_within_num t a b : change_within t a b -> is_num a /\ is_num b.
Proof.
  intros [d [H _]]. destruct a, b; simpl in H; try discriminate; split; eexists; eauto.
Qed.

Lemma forall2_change_nums t : forall new old, Forall2 (change_within t) new old -> Forall is_num new /\ Forall is_num old.
Proof.
  induction 1 as [|a b new old H _ [IH1 IH2]]; [split; constructor|].
  destruct (change_within_num _ _ _ H). split; constructor; auto.
Qed.

Lemma all4_spec : forall vars tols pits pairs,
  all4 vars tols pits pairs = true ->
  length vars = length pairs /\ length tols = length pairs /\ length pits = length pairs /\
  forall i q, nth_error pairs i = Some q ->
    exists v t p, nth_error vars i = Some v /\ nth_error tols i = Some t /\ nth_error pits i = Some p /\
                  pair_ok v t p q = true.
Proof.
  induction vars as [|v vars IH]; intros tols pits pairs H.
  - destruct tols, pits, pairs; simpl in H; try discriminate.
    repeat split; auto. intros i q Hq. destruct i; discriminate.
  - destruct tols as [|t tols], pits as [|p pits], pairs as [|q pairs]; simpl in H; try discriminate.
    apply andb_true_iff in H. destruct H as [H0 H1]. destruct (IH _ _ _ H1) as [L1 [L2 [L3 Hn]]].
    simpl. repeat split; try lia.
    intros i q0 Hq. destruct i as [|i]; simpl in *.
    + inversion Hq; subst. exists v, t, p. auto.
    + apply Hn. auto.
Qed.

Lemma nodup_str_spec : forall l, nodup_str l = true -> NoDup l.
Proof.
  induction l as [|x l IH]; simpl; intros H; constructor; apply andb_true_iff in H; destruct H as [H H']; auto.
  intros Hin. apply negb_true_iff, not_true_iff_false in H. apply H.
  apply existsb_exists. exists x. split; auto. apply String.eqb_refl.
Qed.

Lemma opt_str_eqb_eq a b : opt_str_eqb a b = true -> a = b.
Proof. destruct a, b; simpl; intros H; try discriminate; auto. apply String.eqb_eq in H. now subst. Qed.

Definition wiring_spec (w : stage_wiring) : Prop :=
  sw_vars w <> [] /\ NoDup (sw_vars w) /\
  length (sw_vars w) = length (sw_pairs w) /\ length (sw_tols w) = length (sw_pairs w) /\
  length (sw_pits w) = length (sw_pairs w) /\
  firstn (length (sw_vars w)) (sw_pairs w) = sw_pairs w /\
  forall i q, nth_error (sw_pairs w) i = Some q ->
    exists v t p, nth_error (sw_vars w) i = Some v /\ nth_error (sw_tols w) i = Some t /\
                  nth_error (sw_pits w) i = Some p /\
      (* pair i is read from, and a rejected step is restored into, pit p, column VAR+"INIT", rows = filter *)
      ps_new_pit q = p /\ ps_old_pit q = p /\ ps_new_col q = restore_col v /\ ps_old_col q = restore_col v /\
      ps_new_rows q = ps_filter q /\ ps_old_rows q = ps_filter q /\
      (* and is tested against the tolerance that belongs to that column *)
      t = tol_for_col (ps_new_col q).

Lemma wiring_ok_spec w : wiring_ok w = true -> wiring_spec w.
Proof.
  unfold wiring_ok, wiring_spec. intros H.
  apply andb_true_iff in H. destruct H as [H H4]. apply andb_true_iff in H. destruct H as [Hnd Hne].
  destruct (all4_spec _ _ _ _ H4) as [L1 [L2 [L3 Hn]]].
  split. { intros E. rewrite E in Hne. discriminate. }
  split. { now apply nodup_str_spec. }
  repeat split; auto.
  - rewrite L1. apply firstn_all.
  - intros i q Hq. destruct (Hn i q Hq) as [v [t [p [A [B [C D]]]]]]. exists v, t, p.
    unfold pair_ok in D. repeat (apply andb_true_iff in D; destruct D as [D ?]).
    repeat split; auto; try (now apply String.eqb_eq); try (now apply opt_str_eqb_eq).
Qed.

Lemma list_str_eqb_eq : forall a b, list_str_eqb a b = true -> a = b.
Proof.
  induction a as [|x a IH]; intros [|y b] H; simpl in H; try discriminate; auto.
  apply andb_true_iff in H. destruct H as [H1 H2]. apply String.eqb_eq in H1. subst. f_equal. now apply IH.
Qed.

Lemma restore_in_own_pit_iff w q : restore_in_own_pit w q = true <-> ps_reduce_mode q = sw_final_reduce_mode w.
Proof. apply String.eqb_eq. Qed.

(* st is the state in which the Newton loop of some execution r, started unconverged as every stage starts it, ended *)
Definition ran (st : state) : Prop := exists r a, st = newton (ri_cfg r) (ri_orc r) false a.

Lemma ran_newton r a : ran (newton (ri_cfg r) (ri_orc r) false a).
Proof. now exists r, a. Qed.

Definition nopost (r : run_in) (more : list run_in) : Prop :=
  ri_post r = NoPost /\ Forall (fun x => ri_post x = NoPost) more.

Lemma nopost_tl r r' more : nopost r (r' :: more) -> nopost r' more.
Proof. intros [_ F]. inversion F. now split. Qed.

(* what a stage function, or several in a row, started in net state n guarantee, however they end.  np stands for
   "no exception is raised inside a stage after its loop has converged" *)
Definition stage_post (np : Prop) (n : netst) (res : netst * outcome * list state) : Prop :=
  let '(n', o, sts) := res in
  n_tables n' = n_tables n /\ Forall ran sts /\
  match o with
  | Returned => n_conv n' = true /\ sts <> [] /\ Forall (fun st => s_conv st = true) sts
  | NotConverged => n_conv n' = false
  (* an exception of another class: the flag is False unless it was raised after the loop had converged *)
  | OtherException => np -> n_conv n' = false
  end.

(* rerun_*: after the loop that ended in st has converged the stage function is entered again, from n3 *)
Lemma stage_post_rerun (np : Prop) n n3 st (pop : netst -> netst) x :
  stage_post np n3 x -> n_tables n3 = n_tables n ->
  (forall y, n_tables (pop y) = n_tables y /\ n_conv (pop y) = n_conv y) -> ran st -> s_conv st = true ->
  stage_post np n (let '(n4, o, sts) := x in
                   match o with
                   | Returned => (pop n4, (if n_conv n4 then Returned else NotConverged), (sts ++ [st])%list)
                   | _ => (n4, o, (sts ++ [st])%list)
                   end).
Proof.
  destruct x as [[n4 o] sts]. intros (T4 & RN & X) T P R C.
  assert (Forall ran (sts ++ [st])) by (apply Forall_app; auto).
  destruct (P n4) as [PT PC].
  destruct o; [destruct X as (C4 & NE & FA); rewrite C4|..]; cbn; repeat split; auto; try congruence.
  - destruct sts; discriminate.
  - apply Forall_app. auto.
Qed.

(* a second stage function after one that returned (sequential mode) *)
Lemma stage_post_seq (np : Prop) n n1 s1 x :
  stage_post np n (n1, Returned, s1) -> stage_post np n1 x ->
  stage_post np n (let '(n2, o2, s2) := x in (n2, o2, (s2 ++ s1)%list)).
Proof.
  destruct x as [[n2 o2] s2]. intros (T1 & RN1 & _ & _ & FA1) (T2 & RN2 & X).
  repeat split; try congruence; [apply Forall_app; now split|].
  destruct o2; auto. destruct X as (C & NE & FA). repeat split; auto.
  - destruct s2; [congruence|discriminate].
  - apply Forall_app. now split.
Qed.

(* the exits of a stage function the reader would skip: a tuple of setters applied to n and at most one loop.  Only at
   the exits taken by an exception after a converged loop (ri_post r <> NoPost) is the flag left True: there the
   hypothesis NP of stage_spec turns np into a contradiction with EP *)
Ltac stage_exit := cbn; repeat split; intros; auto using ran_newton; try discriminate; try congruence;
  try match goal with NP : ?np -> _, H : ?np |- _ => destruct (NP H) as [?|[? ?]]; congruence end.

(* bidirectional() has nothing between its loop and its return, so nothing is asked of ri_post there *)
Lemma stage_spec k reuse hu (np : Prop) : forall more r n,
  (np -> k = KBid \/ nopost r more) -> stage_post np n (stage k reuse hu r more n).
Proof.
  induction more as [|r' more IH]; intros r n NP.
  (* hydraulics, heat_transfer, bidirectional, once for each shape of [more]; the walk through the function is
     the same for all six, and [reuse] only matters in the net state an exit hands back *)
  all: destruct k; cbn; [|destruct hu; [now stage_exit|]|].
  all: destruct (ri_escape r); [|destruct reuse; now stage_exit..].
  all: destruct (s_conv (newton _ _ _ _)) eqn:E; [|destruct reuse; now stage_exit].
  (* bidirectional, for either shape of [more]: the loop has converged and nothing follows it *)
  3,6: destruct reuse; now stage_exit.
  all: destruct (ri_post r) eqn:EP; [destruct (ri_rerun r)| |]; destruct reuse; try (now stage_exit).
  (* left: the reruns of hydraulics and heat_transfer with a further execution supplied *)
  all: (eapply (stage_post_rerun np n _ _ (fun y => y)) ||
        eapply (stage_post_rerun np n _ _ (fun y => set_idata y false)));
    [apply IH; intros H; destruct (NP H) as [?|?]; [discriminate|]; right; eapply nopost_tl; eauto
    |now stage_exit..].
Qed.

Definition nopost_env (e : penv) : Prop :=
  nopost (fst (pe_hyd e)) (snd (pe_hyd e)) /\ nopost (fst (pe_heat e)) (snd (pe_heat e)).

Definition pipeflow_post (e : penv) (n : netst) (res : netst * outcome * list state) : Prop :=
  let '(n', o, sts) := res in
  (o = Returned -> n_conv n' = true /\ n_tables n' = Written /\ sts <> [] /\
                   Forall ran sts /\ Forall (fun st => s_conv st = true) sts) /\
  (o = NotConverged -> n_conv n' = false /\ n_tables n' = AllNaN) /\
  (n_tables n' = Written -> o = Returned \/ (o = OtherException /\ n' = n)) /\
  (* any other exception: nothing was touched (init_options), or the tables are all NaN ... *)
  (o = OtherException -> n' = n \/ n_tables n' = AllNaN) /\
  (* ... and once the set-up phase is through (net.converged = False executed) - in particular when the
     exception is raised while the results are extracted or escapes from a Newton loop - the net is marked not
     converged; the one exception: raised inside a stage after its loop had converged (nopost_env excludes it) *)
  (o = OtherException -> pe_options_raise e = false -> pe_setup_raise e = false -> nopost_env e ->
     n_conv n' = false /\ n_tables n' = AllNaN).

(* the try / except around extract_all_results at the end of pipeflow *)
Definition after_extract (e : penv) (x : netst * outcome * list state) : netst * outcome * list state :=
  let '(n', o, sts) := x in
  match o with
  | Returned => if pe_extract_raise e
                then (set_conv (set_tables n' AllNaN) false (n_alpha n'), OtherException, sts)
                else (set_tables n' Written, Returned, sts)
  | _ => x
  end.

(* pipeflow's guarantee, and: it returns only if the final extraction did not raise *)
Definition pipeflow_spec (e : penv) (n : netst) (res : netst * outcome * list state) : Prop :=
  pipeflow_post e n res /\ (snd (fst res) = Returned -> pe_extract_raise e = false).

Lemma after_extract_spec e n0 n x :
  n_tables n = AllNaN -> stage_post (nopost_env e) n x -> pipeflow_spec e n0 (after_extract e x).
Proof.
  intros TN. destruct x as [[n' o] sts]. unfold stage_post, after_extract, pipeflow_spec, pipeflow_post.
  intros (T & RN & X). destruct o.
  - destruct X as (C & NE & FA). destruct (pe_extract_raise e); simpl; repeat split; auto; discriminate.
  - simpl. repeat split; auto; try discriminate; congruence.
  - simpl. repeat split; auto; try discriminate; try congruence; right; congruence.
Qed.

(* an exit of pipeflow that calls no stage function: the claim is read off the triple it returns *)
Ltac plain_exit := now (unfold pipeflow_spec; simpl; repeat split; intros; auto; try discriminate; try congruence).

Lemma pipeflow_meets_spec m e n : pipeflow_spec e n (pipeflow m e n).
Proof.
  unfold pipeflow.
  destruct (pe_options_raise e) eqn:EO; [plain_exit|].
  destruct (pe_setup_raise e) eqn:ES; [plain_exit|].
  destruct (pe_unsupplied e); [plain_exit|].
  destruct (pe_conn_raise e); [plain_exit|].
  match goal with |- context [set_conv ?a false ?b] => set (n1 := set_conv a false b) end.
  assert (TN : n_tables n1 = AllNaN) by reflexivity.
  destruct m; [| | | |plain_exit].
  - apply (after_extract_spec e n n1 _ TN). apply stage_spec. intros [H _]. now right.
  - simpl n_hyd_flag. destruct (n_hyd_flag n); [|plain_exit].
    apply (after_extract_spec e n n1 _ TN). apply stage_spec. intros [_ H]. now right.
  - pose proof (stage_spec KHyd (pe_reuse e) false (nopost_env e) (snd (pe_hyd e)) (fst (pe_hyd e)) n1
                  (fun H => or_intror (proj1 H))) as P.
    destruct (stage KHyd _ _ _ _ n1) as [[n2 o1] s1].
    destruct o1; [|exact (after_extract_spec e n n1 _ TN P)..].
    pose proof (stage_spec KHeat (pe_reuse e) (pe_heat_unsupplied e) (nopost_env e) (snd (pe_heat e))
                  (fst (pe_heat e)) n2 (fun H => or_intror (proj2 H))) as P2.
    destruct (stage KHeat _ _ _ _ n2) as [[n3 o2] s2].
    exact (after_extract_spec e n n1 _ TN (stage_post_seq _ _ _ _ (n3, o2, s2) P P2)).
  - apply (after_extract_spec e n n1 _ TN). apply stage_spec. now left.
Qed.

(* both damping strategies accept an iteration only through the same test (used by C08) *)
Lemma damping_same_fixed_points_lemma cfgA cfgC o stA stC :
  c_meth cfgA = Automatic -> c_meth cfgC <> Automatic ->
  c_tols cfgA = c_tols cfgC -> c_tol_res cfgA = c_tol_res cfgC ->
  (s_conv (step cfgA o stA) = true ->
     s_conv (step cfgC o stC) = true /\ (s_alpha (step cfgA o stA) == 1)%Q) /\
  (s_conv (step cfgC o stC) = true -> (s_alpha (step cfgA o stA) == 1)%Q ->
     s_conv (step cfgA o stA) = true).
Proof.
  intros MA MC T R. rewrite !step_conv, step_alpha, MA.
  assert (TT : tol_test cfgA o = tol_test cfgC o) by (unfold tol_test; now rewrite T, R).
  split.
  - intros H. apply andb_true_iff in H. destruct H as [H1 H2]. split.
    + destruct (c_meth cfgC); congruence.
    + now apply Qeq_bool_iff.
  - intros H A. apply andb_true_iff. split.
    + now apply Qeq_bool_iff.
    + destruct (c_meth cfgC); congruence.
Qed.
