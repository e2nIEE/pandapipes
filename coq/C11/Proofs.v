(* C11 - heat duties: theorems over the generated thermal kernels (Gen/KThermNp, KThermNb), the generated
   get_branch_cp (Gen/KThermExpr) and the generated hooks of HeatConsumer / CirculationPump (Gen/KHooksHeat). *)
From Coq Require Import Reals Lra List.
From PP Require Import Kern.RBool Gen.KThermNp Gen.KThermExpr C10.Spec C10.Proofs.
Import ListNotations.
Open Scope R_scope.

(* exchanger / consumer duty: zero length (or zero loss coefficient), no temperature lift *)

Lemma spec_T_out_no_loss : forall al L d cpb m Text Tin Q,
  al * L = 0 -> spec_T_out al L d cpb m Text Tin 0 Q = Tin - Q / (cpb * m).
Proof.
  intros. unfold spec_T_out.
  replace (al * L * PI * d / (cpb * m)) with 0 by (rewrite H; unfold Rdiv; ring).
  rewrite Ropp_0, exp_0. ring.
Qed.

Lemma duty_iff : forall cpb m ti ti1 Q,
  cpb * m <> 0 -> (ti1 = ti - Q / (cpb * m) <-> Q = m * cpb * (ti - ti1)).
Proof.
  intros cpb m ti ti1 Q H.
  assert (Hc : cpb <> 0) by (intro E; apply H; rewrite E; ring).
  assert (Hm : m <> 0) by (intro E; apply H; rewrite E; ring).
  split; intros E.
  - rewrite E. field. split; assumption.
  - rewrite E. field. split; assumption.
Qed.

(* get_branch_cp is the mean [cbar] (by [lra], not by conversion: the generated expression may be written
   another way round) *)
Lemma branch_cp_cbar : forall tout cp tin, branch_cp_cp tout cp tin = cbar cp tin tout.
Proof. intros. unfold branch_cp_cp, cbar. cbv zeta. lra. Qed.

(* for any heat capacity handed to the kernel; the callers hand in get_branch_cp *)
Theorem exchanger_duty : forall amb al d L m Q Text cpb cpn nf tin tout tn tnt,
  flows m -> al * L = 0 -> cpb * Rabs m <> 0 ->
  (therm_np_fb amb al d L m Q Text 0 cpb cpn nf tin tout tn tnt = 0 <-> Q = Rabs m * cpb * (tin - tout)).
Proof.
  intros amb al d L m Q Text cpb cpn nf tin tout tn tnt Hf Hal Hc.
  rewrite fb_law, <- duty_iff, spec_T_out_no_loss by assumption.
  destruct (flows_reflect m); [lra|contradiction].
Qed.

(* the thermal row of a consumer is balanced when Q = m * cbar * (T_in - T_out); the hooks hand in
   Q = cbar * m * (set-point expression), from which the set-point is read off by cancelling m * cbar *)
Lemma duty_cancel : forall m c a b, m <> 0 -> c <> 0 -> c * m * a = m * c * b -> b = a.
Proof.
  intros m c a b Hm Hc H. apply (Rmult_eq_reg_l (m * c)); [lra|].
  apply Rmult_integral_contrapositive. split; assumption.
Qed.

(* energy closure of a loop given as the list of its branches in flow order: (T_in, T_out) per branch,
   one mass flow m (series loop); the circulation pump closes the loop from the last outlet to the first
   inlet *)
Fixpoint chained (T0 : R) (l : list (R * R)) (Tend : R) : Prop :=
  match l with
  | [] => T0 = Tend
  | (a, b) :: r => a = T0 /\ chained b r Tend
  end.

Fixpoint duties (cp : R -> R) (m : R) (l : list (R * R)) : R :=
  match l with [] => 0 | (a, b) :: r => m * cbar cp a b * (a - b) + duties cp m r end.

(* heat-capacity discretisation term of one branch: mean-c_p duty minus difference of c_p(T) * T *)
Fixpoint discretisation (cp : R -> R) (m : R) (l : list (R * R)) : R :=
  match l with [] => 0 | (a, b) :: r => - (1 / 2) * m * (cp a - cp b) * (a + b) + discretisation cp m r end.

Lemma duties_telescope : forall cp m l T0 Tend,
  chained T0 l Tend ->
  duties cp m l = m * (cp T0 * T0 - cp Tend * Tend) + discretisation cp m l.
Proof.
  intros cp m l. induction l as [|[a b] l IH]; intros T0 Tend H; simpl in *.
  - subst. ring.
  - destruct H as [-> H]. rewrite (IH b Tend H). unfold cbar. field.
Qed.

Lemma discretisation_const : forall c m l, discretisation (fun _ => c) m l = 0.
Proof. intros c m l. induction l as [|[a b] l IH]; simpl; [reflexivity|]. rewrite IH. ring. Qed.
