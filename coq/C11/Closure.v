(* C11 - energy closure of a branched loop (any graph): nodes 0..n-1 with temperatures T, branches in flow
   direction with mass flow m, inlet = temperature of the from node, outlet temperature tout.
   Hypotheses: mass balance at every node (closed loop: no external in/outflow) and the mean-c_p mixing
   equation at every node (C10 node_mixing_law).  Conclusion: summed over ALL branches,
       sum m (c_p(T_from) T_from - c_p(tout) tout)  =  node discretisation term,
   hence  sum over the non-pump branches of the mean-c_p duties
          = heat reported by the pumps + branch discretisation + node discretisation. *)
From Coq Require Import Reals Lra Lia List.
From PP Require Import C10.Spec.
Import ListNotations.
Open Scope R_scope.

Record lbranch := mkLB { l_from : nat; l_to : nat; l_m : R; l_tout : R; l_pump : bool }.

Section Closure.
  Variable cp : R -> R.
  Variable T : nat -> R.

  Definition enthalpy (t : R) : R := cp t * t.                  (* what the pump formula differences *)
  Definition flux_in (b : lbranch) : R := l_m b * enthalpy (T (l_from b)).
  Definition flux_out (b : lbranch) : R := l_m b * enthalpy (l_tout b).
  Definition duty (b : lbranch) : R := l_m b * cbar cp (T (l_from b)) (l_tout b) * (T (l_from b) - l_tout b).
  Definition Dbranch (b : lbranch) : R :=
    - (1 / 2) * l_m b * (cp (T (l_from b)) - cp (l_tout b)) * (T (l_from b) + l_tout b).
  Definition Dnode (b : lbranch) : R :=
    - (1 / 2) * l_m b * (cp (l_tout b) - cp (T (l_to b))) * (l_tout b + T (l_to b)).
  Definition pump_q (b : lbranch) : R := l_m b * (cp (l_tout b) * l_tout b - cp (T (l_from b)) * T (l_from b)).

  Fixpoint sumb (f : lbranch -> R) (l : list lbranch) : R :=
    match l with [] => 0 | b :: r => f b + sumb f r end.
  Fixpoint sumn (k : nat) (g : nat -> R) : R := match k with O => 0 | S k' => sumn k' g + g k' end.

  Definition into (i : nat) (f : lbranch -> R) (l : list lbranch) : R :=
    sumb (fun b => if Nat.eqb (l_to b) i then f b else 0) l.
  Definition outof (i : nat) (f : lbranch -> R) (l : list lbranch) : R :=
    sumb (fun b => if Nat.eqb (l_from b) i then f b else 0) l.

  Lemma sumb_plus f g l : sumb (fun b => f b + g b) l = sumb f l + sumb g l.
  Proof. induction l as [|b l IH]; simpl; [lra|]. rewrite IH. lra. Qed.
  Lemma sumb_ext f g l : (forall b, f b = g b) -> sumb f l = sumb g l.
  Proof. intros H. induction l as [|b l IH]; simpl; [lra|]. rewrite IH, H. lra. Qed.

  Lemma sumn_add k f g : sumn k (fun i => f i + g i) = sumn k f + sumn k g.
  Proof. induction k; simpl; [lra|]. rewrite IHk. lra. Qed.
  Lemma sumn_zero k : sumn k (fun _ => 0) = 0.
  Proof. induction k; simpl; lra. Qed.
  Lemma sumn_ext k f g : (forall i, (i < k)%nat -> f i = g i) -> sumn k f = sumn k g.
  Proof. induction k; intros H; simpl; [reflexivity|]. rewrite IHk, H by (intros; try apply H; lia). reflexivity. Qed.
  Lemma sumn_indicator k j a : (j < k)%nat -> sumn k (fun i => if Nat.eqb j i then a else 0) = a.
  Proof.
    induction k; intros H; [lia|]. simpl. destruct (Nat.eqb_spec j k) as [->|Hne].
    - rewrite (sumn_ext k _ (fun _ => 0)), sumn_zero; [lra|]. intros i Hi. destruct (Nat.eqb_spec k i); [lia|reflexivity].
    - rewrite IHk by lia. lra.
  Qed.

  (* grouping a sum over branches by a node each branch has ([l_to]: [into], [l_from]: [outof]) *)
  Lemma group_sum (key : lbranch -> nat) n f l : (forall b, In b l -> (key b < n)%nat) ->
    sumn n (fun i => sumb (fun b => if Nat.eqb (key b) i then f b else 0) l) = sumb f l.
  Proof.
    induction l as [|b l IH]; intros H; simpl.
    - apply sumn_zero.
    - rewrite sumn_add, IH by (intros; apply H; simpl; tauto).
      rewrite sumn_indicator by (apply H; simpl; tauto). reflexivity.
  Qed.

  Lemma into_lin i (f g : lbranch -> R) c l :
    (forall b, l_to b = i -> f b = g b + c * l_m b) -> into i f l = into i g l + c * into i l_m l.
  Proof.
    intros H. unfold into. induction l as [|b l IH]; simpl; [lra|]. rewrite IH.
    destruct (Nat.eqb_spec (l_to b) i) as [E|]; [rewrite (H b E)|]; lra.
  Qed.
  Lemma into_plus i (f g : lbranch -> R) l : into i (fun b => f b + g b) l = into i f l + into i g l.
  Proof. unfold into. rewrite <- sumb_plus. apply sumb_ext. intros b. destruct (Nat.eqb (l_to b) i); lra. Qed.
  Lemma outof_scal i (f : lbranch -> R) c l :
    (forall b, l_from b = i -> f b = c * l_m b) -> outof i f l = c * outof i l_m l.
  Proof.
    intros H. unfold outof. induction l as [|b l IH]; simpl; [lra|]. rewrite IH.
    destruct (Nat.eqb_spec (l_from b) i) as [E|]; [rewrite (H b E)|]; lra.
  Qed.

  Definition mixterm (b : lbranch) : R := l_m b * cbar cp (l_tout b) (T (l_to b)) * (l_tout b - T (l_to b)).

  Variable n : nat.
  Variable bs : list lbranch.
  Hypothesis H_range : forall b, In b bs -> (l_from b < n)%nat /\ (l_to b < n)%nat.
  Hypothesis H_mass : forall i, (i < n)%nat -> into i l_m bs = outof i l_m bs.
  Hypothesis H_mix : forall i, (i < n)%nat -> into i mixterm bs = 0.

  (* per node: enthalpy-like flow out of the node = flow into it + node discretisation of its inflows *)
  Lemma node_balance i : (i < n)%nat ->
    outof i flux_in bs = into i flux_out bs + into i Dnode bs.
  Proof.
    intros Hi.
    assert (E1 : into i mixterm bs = into i (fun b => flux_out b + Dnode b) bs + (- enthalpy (T i)) * into i l_m bs).
    { apply into_lin. intros b Hb. unfold mixterm, flux_out, Dnode, enthalpy, cbar. rewrite Hb. field. }
    assert (E2 : outof i flux_in bs = enthalpy (T i) * outof i l_m bs).
    { apply outof_scal. intros b Hb. unfold flux_in. rewrite Hb. ring. }
    rewrite E2, <- (H_mass i Hi). rewrite (H_mix i Hi), into_plus in E1. lra.
  Qed.

  Theorem enthalpy_closure : sumb flux_in bs = sumb flux_out bs + sumb Dnode bs.
  Proof.
    rewrite <- (group_sum l_from n flux_in bs), <- (group_sum l_to n flux_out bs), <- (group_sum l_to n Dnode bs);
      try (intros b Hb; apply H_range; assumption).
    rewrite <- sumn_add. apply sumn_ext. intros i Hi. apply node_balance. assumption.
  Qed.

  Definition nonpump (f : lbranch -> R) (b : lbranch) : R := if l_pump b then 0 else f b.
  Definition onpump (f : lbranch -> R) (b : lbranch) : R := if l_pump b then f b else 0.
End Closure.

(* branch by branch: a pump reports flux_out - flux_in, any other branch has
   duty = flux_in - flux_out + its discretisation term *)
Lemma enthalpy_split cp T l :
  sumb (flux_in cp T) l - sumb (flux_out cp) l =
  sumb (nonpump (duty cp T)) l - sumb (nonpump (Dbranch cp T)) l - sumb (onpump (pump_q cp T)) l.
Proof.
  induction l as [|b l IH]; simpl; [lra|].
  unfold nonpump, onpump, duty, Dbranch, pump_q, flux_in, flux_out, enthalpy, cbar in *.
  destruct (l_pump b); lra.
Qed.

Lemma const_cp_no_discretisation : forall c T (l : list lbranch),
  sumb (nonpump (Dbranch (fun _ => c) T)) l = 0 /\ sumb (Dnode (fun _ => c) T) l = 0.
Proof.
  intros. split; induction l as [|b l IH]; simpl; try lra; rewrite IH; unfold nonpump, Dbranch, Dnode;
    destruct (l_pump b); lra.
Qed.
