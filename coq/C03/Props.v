(* C03 - prescribed pressures, flows, lifts and ratios: property theorems only.
   Statements over an arbitrary commutative ring; model PP.C01.Model (shared with C01), tied to
   /repo by the exact correspondences of tools/props/c03.py evaluated inside Coq. *)
From Coq Require Import ZArith QArith List Lia.
From PP Require Import C01.Model C01.Proofs C01.Corr.
Import ListNotations.
Close Scope Q_scope.
Open Scope nat_scope.

(* 1a. any solution of the assembled system leaves the pressure of every slack node (ext grid,
       circulation-pump flow junction) unchanged: p' = p - alpha * 0 = p_init, in every iteration *)
Theorem fixed_pressure_slack :
  forall (A : Type) (zero one : A) (add mul sub : A -> A -> A) (opp : A -> A),
  ring_theory zero one add mul sub opp eq ->
  forall (ns : list (@node A)) (bs : list (@branch A)) (x : nat -> A) (s : nat) (nd : @node A),
  solves zero one add mul sub opp ns bs x ->
  nth_error ns s = Some nd -> is_TSlack (n_typ nd) = true -> x s = zero.
Proof. exact @fixed_slack_lemma. Qed.
Print Assumptions fixed_pressure_slack.

(* 1b. ... and of every pressure-controlled node (rows of PC branches zeroed by the component hook,
       as many PC branches as PC nodes - numpy raises otherwise) *)
Theorem fixed_pressure_controlled :
  forall (A : Type) (zero one : A) (add mul sub : A -> A -> A) (opp : A -> A),
  ring_theory zero one add mul sub opp eq ->
  forall (ns : list (@node A)) (bs : list (@branch A)) (x : nat -> A) (c : nat),
  solves zero one add mul sub opp ns bs x -> ends_in_range ns bs ->
  length (pc_branches bs) = length (pc_nodes ns) ->
  (forall k b, nth_error bs k = Some b -> b_pc b = true -> b_dm b = zero /\ b_dp b = zero /\ b_dp1 b = zero) ->
  In c (pc_nodes ns) -> x c = zero.
Proof. exact @fixed_pc_lemma. Qed.
Print Assumptions fixed_pressure_controlled.

(* 3. identity rows keep the prescribed flow: x_b = 0, so m_b stays the set value forever.  Which component hooks
      write these rows (and the PC rows of 1b) is read off the source in C01.PropsT.hooks_write_prescribed_rows. *)
Theorem identity_rows_keep_flow :
  forall (A : Type) (zero one : A) (add mul sub : A -> A -> A) (opp : A -> A),
  ring_theory zero one add mul sub opp eq ->
  forall (ns : list (@node A)) (bs : list (@branch A)) (x : nat -> A) (k : nat) (b : @branch A),
  solves zero one add mul sub opp ns bs x -> ends_in_range ns bs -> nth_error bs k = Some b ->
  b_pc b = false -> b_dm b = one -> b_dp b = zero -> b_dp1 b = zero -> b_lvb b = zero ->
  x (length ns + k) = zero.
Proof. exact @identity_row_lemma. Qed.
Print Assumptions identity_rows_keep_flow.

(* the momentum row of every other branch is exactly  dm x_b + dp x_from + dp1 x_to = load_vec *)
Theorem momentum_row :
  forall (A : Type) (zero one : A) (add mul sub : A -> A -> A) (opp : A -> A),
  ring_theory zero one add mul sub opp eq ->
  forall (ns : list (@node A)) (bs : list (@branch A)) (x : nat -> A) (k : nat) (b : @branch A),
  solves zero one add mul sub opp ns bs x -> ends_in_range ns bs -> nth_error bs k = Some b -> b_pc b = false ->
  add (add (mul (b_dm b) (x (length ns + k))) (mul (b_dp b) (x (b_fn b)))) (mul (b_dp1 b) (x (b_tn b))) = b_lvb b.
Proof. exact @momentum_row_lemma. Qed.
Print Assumptions momentum_row.

(* 2. p_init is the mean (local law of set_fixed_node_entries; one call, and two calls in a row).  The code writes
      v = (p_old * cnt + s) / (k + cnt); the statements keep that expression as the code evaluates it, at cnt = 0 for a
      first call (hence mul p zero, add k zero) and at cnt = 0 + k1, p_old = v1 for the second.  [div] need only
      invert the multiplication at the divisor that occurs. *)
Theorem p_init_is_mean_one_call :
  forall (A : Type) (zero one : A) (add mul sub : A -> A -> A) (opp : A -> A),
  ring_theory zero one add mul sub opp eq ->
  forall (div : A -> A -> A) (p s k v : A),
  (forall a b, b = add k zero -> mul (div a b) b = a) ->
  v = div (add (mul p zero) s) (add k zero) -> mul v k = s.
Proof. exact @mean_first_lemma. Qed.
Print Assumptions p_init_is_mean_one_call.

Theorem p_init_is_mean_two_calls :
  forall (A : Type) (zero one : A) (add mul sub : A -> A -> A) (opp : A -> A),
  ring_theory zero one add mul sub opp eq ->
  forall (div : A -> A -> A) (p s1 k1 v1 s2 k2 v2 : A),
  (forall a b, b = add k1 zero -> mul (div a b) b = a) ->
  (forall a b, b = add k2 (add zero k1) -> mul (div a b) b = a) ->
  v1 = div (add (mul p zero) s1) (add k1 zero) ->
  v2 = div (add (mul v1 (add zero k1)) s2) (add k2 (add zero k1)) ->
  mul v2 (add k1 k2) = add s1 s2.
Proof. exact @mean_two_calls_lemma. Qed.
Print Assumptions p_init_is_mean_two_calls.

(* 2'. p_init_is_mean, grouped form over labels: after set_fixed_node_entries (mode p) on ANY table of pressure-fixing
       rows (any labels, row order, several rows per junction, rows of type t filtered out) the pressure of node i times
       the new count is the old pressure times the old count plus the sum S of the valid values on node i, and the count
       grows by their number N - hence by induction over the calls (ext grids, then circulation pumps) PINIT is the mean
       of all valid values on the junction.  [pos] injective on the labels used (the junction lookup is a bijection);
       [div] inverts the multiplication by the new count wherever a row was written. *)
Theorem p_init_is_mean_grouped :
  forall (A : Type) (zero one : A) (add mul sub : A -> A -> A) (opp : A -> A),
  ring_theory zero one add mul sub opp eq ->
  forall (div : A -> A -> A) (pos : Z -> nat) (rows : list (@fx_row A)) (st : @fx_state A) (i : nat),
  let S := fsum zero add (fun l => Nat.eqb (pos l) i) (fx_values rows) in
  let N := fsum zero add (fun l => Nat.eqb (pos l) i) (fx_ones one rows) in
  let st' := fixed_entries2 zero one add mul div pos rows st in
  (forall r r', In r rows -> In r' rows -> fx_valid r = true -> fx_valid r' = true ->
                pos (fx_junction r) = pos (fx_junction r') -> fx_junction r = fx_junction r') ->
  i < length (fs_p st) -> i < length (fs_cnt st) ->
  ((exists r, In r rows /\ fx_valid r = true /\ pos (fx_junction r) = i) ->
   forall a, mul (div a (add N (nth i (fs_cnt st) zero))) (add N (nth i (fs_cnt st) zero)) = a) ->
  mul (nth i (fs_p st') zero) (add N (nth i (fs_cnt st) zero)) = add (mul (nth i (fs_p st) zero) (nth i (fs_cnt st) zero)) S
  /\ nth i (fs_cnt st') zero = add (nth i (fs_cnt st) zero) N.
Proof. exact @fixed_entries_grouped_lemma. Qed.
Print Assumptions p_init_is_mean_grouped.

(* 4. circulation pump (pressure): Newton correction of the return pressure; at a fixed point the
      kernel's load_vec = 0, i.e. (lift_fixed_point) p_flow - p_return = plift + height term - friction *)
Theorem circ_pressure_row :
  forall (A : Type) (zero one : A) (add mul sub : A -> A -> A) (opp : A -> A),
  ring_theory zero one add mul sub opp eq ->
  forall (ns : list (@node A)) (bs : list (@branch A)) (x : nat -> A) (k : nat) (b : @branch A) (nd : @node A),
  solves zero one add mul sub opp ns bs x -> ends_in_range ns bs -> nth_error bs k = Some b ->
  b_pc b = false -> b_dp b = one -> b_dp1 b = opp one ->
  nth_error ns (b_tn b) = Some nd -> is_TSlack (n_typ nd) = true ->
  x (b_fn b) = sub (b_lvb b) (mul (b_dm b) (x (length ns + k))).
Proof. exact @circ_pressure_row_lemma. Qed.
Print Assumptions circ_pressure_row.

Theorem lift_fixed_point :
  forall (A : Type) (zero one : A) (add mul sub : A -> A -> A) (opp : A -> A),
  ring_theory zero one add mul sub opp eq ->
  forall pf pt pl h fr : A,
  sub (add (add (sub pf pt) pl) h) fr = zero -> sub pt pf = sub (add pl h) fr.
Proof. exact @lift_fixed_point_lemma. Qed.
Print Assumptions lift_fixed_point.

(* 5. compressor: absolute pressure ratio for forward flow, loss-free bypass for reverse flow.  The hypothesis is
      the kernels' line load_vec = p_diff + PL + height term - friction at a fixed point (load_vec = 0), with what
      Compressor.adaption_before_derivatives_hydraulic sets: PL = p_from * ratio - p_from (reverse flow: PL = 0),
      no height difference, no friction.  These are ring identities; that the kernels compute that line is C02
      (comp_residual_is_gas_law). *)
Theorem compressor_ratio :
  forall (A : Type) (zero one : A) (add mul sub : A -> A -> A) (opp : A -> A),
  ring_theory zero one add mul sub opp eq ->
  forall pf pt ratio : A,
  sub (add (add (sub pf pt) (sub (mul pf ratio) pf)) zero) zero = zero -> pt = mul ratio pf.
Proof. exact @compressor_ratio_lemma. Qed.
Print Assumptions compressor_ratio.

Theorem compressor_reverse_flow :
  forall (A : Type) (zero one : A) (add mul sub : A -> A -> A) (opp : A -> A),
  ring_theory zero one add mul sub opp eq ->
  forall pf pt : A, sub (add (add (sub pf pt) zero) zero) zero = zero -> pt = pf.
Proof. exact @compressor_reverse_lemma. Qed.
Print Assumptions compressor_reverse_flow.

(* ---------------------------------------------------------------- non-vacuity: one slack node, one PC node with
   its PC branch (row zeroed), one identity row (flow control); x solves the assembled system at Z *)
Definition ex3_nodes : list (@node Z) := [nd TSlack 1 4 (-1); nd TOther 2 0 0; nd TPc 0 0 0; nd TOther 3 0 0].
Definition ex3_branches : list (@branch Z) :=
  [br 0 1 (-2) 1 (-1) 1 (-4) 2 2 false;   (* pipe 0 -> 1 *)
   br 1 2 0 0 0 1 7 1 1 true;             (* PC branch 1 -> 2, controls node 2 (row zeroed by the hook) *)
   br 2 3 1 0 0 1 0 5 5 false;            (* flow control 2 -> 3: identity row *)
   br 3 0 (-2) 1 (-1) 1 (-2) 3 3 false].  (* pipe 3 -> 0 *)
Definition ex3_x (i : nat) : Z := nth i [0; 14; 0; 0; -5; -4; 0; 1; 10]%Z 0%Z.

Example example3_guards :
  ends_in_range ex3_nodes ex3_branches /\ length (pc_branches ex3_branches) = length (pc_nodes ex3_nodes) /\
  pc_nodes ex3_nodes = [2] /\ pc_branches ex3_branches = [1].
Proof.
  split; [|repeat split; reflexivity].
  intros b H. simpl in H. repeat (destruct H as [<-|H]; [simpl; split; repeat constructor|]). destruct H.
Qed.

Example example3_solves : solves 0%Z 1%Z Z.add Z.mul Z.sub Z.opp ex3_nodes ex3_branches ex3_x.
Proof.
  intros r Hr. change (dim ex3_nodes ex3_branches) with 9 in Hr.
  do 9 (destruct r as [|r]; [vm_compute; reflexivity|]). lia.
Qed.

(* grouped mean on a concrete table at Q: ext grids 6 / 9 bar (+ one of type t) on junction 100005, 3 bar on junction 7 *)
Example example_mean_grouped :
  let st := fixed_entries2 0%Q 1%Q Qplus Qmult Qdiv (zassoc [(100005%Z, 2); (7%Z, 0)] 9)
              [fx 100005 6 true; fx 7 3 true; fx 100005 50 false; fx 100005 9 true]
              (mkFxs [5; 5; 5]%Q [0; 0; 0]%Q [false; false; false]) in
  qlist_eqb (fs_p st) [3; 5; 15 # 2]%Q = true /\ qlist_eqb (fs_cnt st) [1; 0; 2]%Q = true /\ fs_isP st = [true; false; true].
Proof. vm_compute. repeat split; reflexivity. Qed.
