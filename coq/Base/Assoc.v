(* Association lists modelling Python dicts with string keys. *)
From Coq Require Import String List Bool.
Import ListNotations.
Open Scope string_scope.

Section Assoc.
  Variable V : Type.
  Definition layer := list (string * V).

  Fixpoint get (k : string) (l : layer) : option V :=
    match l with
    | [] => None
    | (k', v) :: r => if String.eqb k k' then Some v else get k r
    end.

  Definition mem (k : string) (l : layer) : bool :=
    match get k l with Some _ => true | None => false end.

  (* d[k] = v : replace the binding in place, or append (insertion order is kept) *)
  Fixpoint set (k : string) (v : V) (l : layer) : layer :=
    match l with
    | [] => [(k, v)]
    | (k', v') :: r => if String.eqb k k' then (k', v) :: r else (k', v') :: set k v r
    end.

  (* d.pop(k, None) *)
  Fixpoint remove (k : string) (l : layer) : layer :=
    match l with
    | [] => []
    | (k', v') :: r => if String.eqb k k' then remove k r else (k', v') :: remove k r
    end.

  (* {**a, **b} *)
  Definition merge (a b : layer) : layer := fold_left (fun acc kv => set (fst kv) (snd kv) acc) b a.

  Lemma get_set k k' v l : get k (set k' v l) = if String.eqb k k' then Some v else get k l.
  Proof.
    induction l as [|[k2 v2] r IH]; simpl; [reflexivity|].
    destruct (String.eqb_spec k' k2) as [->|N]; simpl.
    - now destruct (String.eqb k k2).
    - rewrite IH. destruct (String.eqb_spec k k2) as [->|]; [|reflexivity].
      destruct (String.eqb_spec k2 k'); congruence.
  Qed.

  Lemma get_set_same k v l : get k (set k v l) = Some v.
  Proof. now rewrite get_set, String.eqb_refl. Qed.

  Lemma get_set_other k k' v l : k <> k' -> get k (set k' v l) = get k l.
  Proof. intros H. rewrite get_set. now destruct (String.eqb_spec k k'). Qed.

  Lemma get_remove k k' l : get k (remove k' l) = if String.eqb k k' then None else get k l.
  Proof.
    induction l as [|[k2 v2] r IH]; simpl; [now destruct (String.eqb k k')|].
    destruct (String.eqb_spec k' k2) as [->|N]; simpl; rewrite IH.
    - now destruct (String.eqb k k2).
    - destruct (String.eqb_spec k k2) as [->|]; [|reflexivity].
      destruct (String.eqb_spec k2 k'); congruence.
  Qed.

  Fixpoint nodup_keys (l : layer) : bool :=
    match l with
    | [] => true
    | (k, _) :: r => negb (mem k r) && nodup_keys r
    end.

  (* [merge] folds [set] over [b]: of a key bound twice in [b] the last binding wins, while [get k b]
     finds the first; hence the guard is on [b] here, and on [a] in [nodup_merge]. *)
  Lemma get_merge k a b : nodup_keys b = true ->
    get k (merge a b) = match get k b with Some v => Some v | None => get k a end.
  Proof.
    unfold merge. revert a. induction b as [|[k' v'] r IH]; intros a Hnd; simpl; auto.
    simpl in Hnd. apply andb_true_iff in Hnd. destruct Hnd as [Hk Hr].
    rewrite (IH _ Hr). destruct (String.eqb k k') eqn:E.
    - apply String.eqb_eq in E. subst k'.
      unfold mem in Hk. destruct (get k r); simpl in Hk; try discriminate.
      apply get_set_same.
    - destruct (get k r); auto. apply get_set_other. intros ->. now rewrite String.eqb_refl in E.
  Qed.

  Lemma mem_set_other k k' v l : k <> k' -> mem k (set k' v l) = mem k l.
  Proof. intros. unfold mem. now rewrite get_set_other. Qed.

  Lemma nodup_set k v l : nodup_keys l = true -> nodup_keys (set k v l) = true.
  Proof.
    induction l as [|[k' v'] r IH]; simpl; auto.
    intros H. apply andb_true_iff in H. destruct H as [H1 H2].
    destruct (String.eqb k k') eqn:E; simpl.
    - now rewrite H1, H2.
    - rewrite IH by auto. rewrite mem_set_other.
      + now rewrite H1.
      + intros ->. now rewrite String.eqb_refl in E.
  Qed.

  Lemma nodup_merge a b : nodup_keys a = true -> nodup_keys (merge a b) = true.
  Proof.
    unfold merge. revert a. induction b as [|[k v] r IH]; intros a H; simpl; auto.
    apply IH. now apply nodup_set.
  Qed.
End Assoc.

Arguments get {V}. Arguments mem {V}. Arguments set {V}. Arguments remove {V}.
Arguments merge {V}. Arguments nodup_keys {V}.
