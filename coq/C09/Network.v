(* C09 - from equal residuals to equal solutions.
   The network model and the uniqueness theorem are C08's (coq/C08/Unique.v: a net is a list of branches
   (fn, tn, phi, cst) with the law  p fn - p tn + cst = phi m, node balance at non-slack nodes, fixed pressures at
   slack nodes).  Here: the rewrites of a net (a subset of branches reversed, loads merged, a branch cut in two), the
   liquid branch the code builds, and the lemmas from which Props.v concludes that a rewritten net has the
   correspondingly rewritten solution, and - the branch laws being strictly increasing (C08/KernelMono.v for the
   liquid law of the generated kernel) - only that one. *)
From Coq Require Import Reals List Lra Lia FunctionalExtensionality.
From PP Require Import Gen.KHydIncompNp Gen.KCalcLambda C08.Unique C08.KernelMono C09.Model.
Import ListNotations.
Open Scope R_scope.

(* a branch law sees the pressures only through the drop between its two end nodes *)
Lemma law_same_drops (p p' : nat -> R) bs ms :
  Forall (fun b => p' (fn b) - p' (tn b) = p (fn b) - p (tn b)) bs ->
  Forall2 (fun b m => p (fn b) - p (tn b) + cst b = phi b m) bs ms ->
  Forall2 (fun b m => p' (fn b) - p' (tn b) + cst b = phi b m) bs ms.
Proof.
  intros Hd Hw. induction Hw as [|b m bs ms Hb _ IH]; constructor.
  - rewrite (Forall_inv Hd). exact Hb.
  - apply IH. exact (Forall_inv_tail Hd).
Qed.

Definition rev_branch (b : branch) : branch :=
  {| fn := tn b; tn := fn b; phi := fun m => - phi b (- m); cst := - cst b |}.

Fixpoint rev_where (mask : list bool) (bs : list branch) : list branch :=
  match mask, bs with
  | r :: mk, b :: bs' => (if r then rev_branch b else b) :: rev_where mk bs'
  | _, _ => bs
  end.
Fixpoint neg_where (mask : list bool) (ms : list R) : list R :=
  match mask, ms with
  | r :: mk, m :: ms' => (if r then - m else m) :: neg_where mk ms'
  | _, _ => ms
  end.

Lemma rev_where_length mask bs : length (rev_where mask bs) = length bs.
Proof. revert bs. induction mask as [|r mk IH]; intros [|b bs]; simpl; auto. Qed.
Lemma neg_where_length mask ms : length (neg_where mask ms) = length ms.
Proof. revert ms. induction mask as [|r mk IH]; intros [|m ms]; simpl; auto. Qed.

Lemma outflow_rev mask : forall bs ms i,
  outflow (combine (rev_where mask bs) (neg_where mask ms)) i = outflow (combine bs ms) i.
Proof.
  induction mask as [|r mk IH]; intros [|b bs] [|m ms] i; simpl; try reflexivity.
  rewrite IH. destruct r; simpl; lra.
Qed.

Lemma law_rev mask (p : nat -> R) : forall bs ms,
  Forall2 (fun b m => p (fn b) - p (tn b) + cst b = phi b m) bs ms ->
  Forall2 (fun b m => p (fn b) - p (tn b) + cst b = phi b m) (rev_where mask bs) (neg_where mask ms).
Proof.
  induction mask as [|r mk IH]; intros bs ms H; [destruct bs, ms; exact H|].
  destruct H as [|b m bs ms Hb Hr]; [constructor|]. simpl. constructor; [|apply IH; exact Hr].
  destruct r; [|exact Hb]. simpl. rewrite Ropp_involutive. lra.
Qed.

(* what holds of every branch and survives reversal holds of every branch of the partly reversed net *)
Lemma Forall_rev_where (P : branch -> Prop) mask : (forall b, P b -> P (rev_branch b)) ->
  forall bs, Forall P bs -> Forall P (rev_where mask bs).
Proof.
  intros Hrev. induction mask as [|r mk IH]; intros bs H; [destruct bs; exact H|].
  destruct H as [|b bs Hb Hr]; [constructor|]. simpl. constructor; [|apply IH; exact Hr].
  destruct r; [apply Hrev|]; exact Hb.
Qed.

Lemma mono_rev_branch b : strictly_increasing (phi b) -> strictly_increasing (phi (rev_branch b)).
Proof. intros H x y Hxy. simpl. assert (phi b (- y) < phi b (- x)) by (apply H; lra). lra. Qed.

(* C08's uniqueness theorem, flows and pressures together *)
Lemma only_solution n slack pfix load bs p ms p' ms' :
  in_range n bs -> Forall (fun b => strictly_increasing (phi b)) bs ->
  solves n slack pfix load bs p ms -> solves n slack pfix load bs p' ms' ->
  ms' = ms /\ forall i, Reach n slack bs i -> p' i = p i.
Proof.
  intros Hr Hm S S'. split.
  - exact (flows_unique n slack pfix load bs p' p ms' ms Hr Hm S' S).
  - exact (pressures_unique n slack pfix load bs p' p ms' ms Hr Hm S' S).
Qed.

(* law of a liquid pipe / valve without pressure lift, read off the generated kernel:
   (p_f + pamb_f) - (p_t + pamb_t) + rho g (h_f - h_t) / 1e5 = phi m     (KernelMono.incomp_residual_is_law_np) *)
Definition incomp_branch (f t : nat) (A D eta k L zeta rho hf ht af at_ : R) : branch :=
  {| fn := f; tn := t;
     phi := incomp_phi_np A D eta k L zeta 0 0 0 0 0 rho;
     cst := rho * (981 / 100) * (hf - ht) / 100000 + (af - at_) |}.

Lemma incomp_phi_odd A D eta k L zeta PL dl dh pt pf rho m :
  incomp_phi_np A D eta k L zeta PL dl dh pt pf rho (- m) = - incomp_phi_np A D eta k L zeta PL dl dh pt pf rho m.
Proof.
  unfold incomp_phi_np, hyd_incomp_np_load_vec, calc_lambda_incomp_np_lambda_tot. cbv zeta.
  rewrite Rabs_Ropp. unfold Rdiv. ring.
Qed.

Lemma incomp_phi_ignores A D eta k L zeta PL dl dh pt pf rho m :
  incomp_phi_np A D eta k L zeta PL dl dh pt pf rho m = incomp_phi_np A D eta k L zeta 0 0 0 0 0 rho m.
Proof.
  unfold incomp_phi_np, hyd_incomp_np_load_vec. cbv zeta. unfold Rdiv. ring.
Qed.

(* the branch of the pipe declared the other way round (ends, heights and ambient pressures exchanged) is the
   reversed branch of the network model *)
Lemma incomp_branch_reversed f t A D eta k L zeta rho hf ht af at_ :
  incomp_branch t f A D eta k L zeta rho ht hf at_ af = rev_branch (incomp_branch f t A D eta k L zeta rho hf ht af at_).
Proof.
  unfold incomp_branch, rev_branch. simpl. f_equal.
  - apply functional_extensionality. intros m. rewrite incomp_phi_odd. lra.
  - unfold Rdiv. ring.
Qed.

Lemma incomp_branch_mono f t A D eta k L zeta rho hf ht af at_ :
  0 < A -> 0 < D -> 0 < eta -> 0 < rho -> 0 < k -> k <> 371 / 100 * D -> 0 <= L -> 0 <= zeta -> 0 < L + zeta ->
  strictly_increasing (phi (incomp_branch f t A D eta k L zeta rho hf ht af at_)).
Proof. intros. simpl. apply incomp_nikuradse_law_strictly_monotone; assumption. Qed.

(* the law of the model branch is the vanishing of the generated residual at gauge pressures pf, pt *)
Lemma incomp_branch_law_is_residual f t A D eta k L zeta rho hf ht af at_ (p : nat -> R) m dl :
  p f - p t + cst (incomp_branch f t A D eta k L zeta rho hf ht af at_)
    = phi (incomp_branch f t A D eta k L zeta rho hf ht af at_) m
  <-> hyd_incomp_np_load_vec A D (calc_lambda_incomp_np_lambda_tot A D eta k m) L zeta m 0 dl (hf - ht)
        (p t + at_) (p f + af) rho = 0.
Proof.
  simpl. rewrite (incomp_residual_is_law_np A D eta k L zeta 0 dl (hf - ht) (p t + at_) (p f + af) rho m).
  rewrite (incomp_phi_ignores A D eta k L zeta 0 dl (hf - ht) (p t + at_) (p f + af) rho m). split; intros H; lra.
Qed.

Lemma solves_load_ext n slack pfix load load' bs p ms :
  (forall i, (i < n)%nat -> load i = load' i) -> solves n slack pfix load bs p ms -> solves n slack pfix load' bs p ms.
Proof.
  intros He [Hl Hf Hb Hw]. constructor; auto. intros i Hi Hs. rewrite <- (He i Hi). apply Hb; assumption.
Qed.

Definition Rtotal_load := @total_load R 0 1 Rplus Rmult.
Definition Rmerged_sink := @merged_sink R 0 1 Rplus Rmult.

(* The first branch b of a net over n nodes is cut into b1 : fn b -> x and b2 : x -> tn b at a new node x = n
   (no load, not a slack) with phi b = phi1 + phi2 and cst b = cst1 + cst2.  n sections (or n pipes in series) arise by
   repeating the cut; Proofs.residuals_in_series is the statement that the kernel's section residuals add up this way. *)
Definition split_slack (n : nat) (slack : nat -> bool) (i : nat) : bool := if Nat.eqb i n then false else slack i.
Definition split_load (n : nat) (load : nat -> R) (i : nat) : R := if Nat.eqb i n then 0 else load i.
Definition split_p (n : nat) (p : nat -> R) (px : R) (i : nat) : R := if Nat.eqb i n then px else p i.

Lemma split_p_old n p px i : (i < n)%nat -> split_p n p px i = p i.
Proof. intros H. unfold split_p. destruct (Nat.eqb_spec i n); [lia|reflexivity]. Qed.

Lemma split_p_new n p px : split_p n p px n = px.
Proof. unfold split_p. rewrite Nat.eqb_refl. reflexivity. Qed.

Lemma outflow_out_of_range n bm : Forall (fun x => (fn (fst x) < n)%nat /\ (tn (fst x) < n)%nat) bm -> outflow bm n = 0.
Proof.
  induction 1 as [|[b m] r [Hf Ht] _ IH]; simpl; [reflexivity|]. simpl in Hf, Ht. rewrite IH. unfold ind.
  destruct (Nat.eqb_spec (fn b) n); [lia|]. destruct (Nat.eqb_spec (tn b) n); [lia|]. lra.
Qed.
