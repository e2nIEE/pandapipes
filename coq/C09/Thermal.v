(* C09 - reverse_branch for the thermal calculation (T-tie): the node temperatures a branch is fed with.
   Gen/KTSwitch.v = the direction switch FROM_NODE_T_SWITCHED := MDOTINIT < -2e-11 and get_from/to_nodes_corrected,
   translated by tools/translate/c09_kernels.py so that C09 stands without C10 (whose Gen/KThermExpr.dir_switched is the
   same source line).
   A branch declared the other way round (node columns exchanged, flow negated) is fed with the same corrected inlet /
   outlet-node temperatures whenever it carries flow; Props.thermal_reverse_branch(_numba) conclude that every branch
   output of the thermal kernels is unchanged. *)
From Coq Require Import Reals Lra.
From PP Require Import Kern.RBool Gen.KTSwitch.
Open Scope R_scope.

(* inlet temperature the kernel is fed with, for a branch (T_from_node, T_to_node, m) *)
Definition t_inlet (Tf Tt m : R) : R := corrected_from (t_switched m) Tf Tt.
Definition t_outnode (Tf Tt m : R) : R := corrected_to (t_switched m) Tf Tt.

(* with flow (|m| above the no-flow threshold of the kernel, which is above the switch threshold) the reversed
   description reads the same physical nodes *)
Lemma corrected_nodes_reversed : forall Tf Tt m, 1 / 10000000000 < Rabs m ->
  t_inlet Tt Tf (- m) = t_inlet Tf Tt m /\ t_outnode Tt Tf (- m) = t_outnode Tf Tt m.
Proof.
  intros Tf Tt m Hm. unfold t_inlet, t_outnode, corrected_from, corrected_to, t_switched, t_switch_threshold.
  unfold Rabs in Hm. destruct (Rcase_abs m) as [Hn|Hp];
  destruct (Rltb_spec (- m) ((- 1) / 50000000000)); destruct (Rltb_spec m ((- 1) / 50000000000));
  try (split; reflexivity); lra.
Qed.
