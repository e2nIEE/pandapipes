(* C09 - proofs about the hand-written model (C09/Model.v) and its combination with the generated kernels.
   Part A: load aggregation, for every commutative ring (axiom-free).
   Part B: section expansion over R: interpolated heights reverse with the pipe; liquid residuals of branches in
           series add up (any lengths, loss coefficients and heights), in particular the n section residuals of the
           generated incompressible kernel add up to the one-section residual (for every n >= 1).
   Part C: chaining of FROM_NODE / TO_NODE (any scalar type): the chain of the reversed pipe is the mirrored chain; the
           chain of an n-section pipe is, up to node renaming, that of n one-section pipes in series. *)
From Coq Require Import List ZArith Bool Lia Permutation Ring Reals Lra.
From PP Require Import C09.Model.
Import ListNotations.

(* ===================================================================================== A. loads *)
Section Loads.
  Context {A : Type} (zero one : A) (add mul sub : A -> A -> A) (opp : A -> A).
  Context (Rth : ring_theory zero one add mul sub opp eq).
  Add Ring Aring : Rth.

  Notation row_flow := (row_flow zero one mul).
  Notation table_load := (table_load zero one add mul).
  Notation total_load := (total_load zero one add mul).
  Notation merged_sink := (merged_sink zero one add mul).
  Notation negate_row := (negate_row zero opp).

  Lemma table_load_app s r1 r2 j : table_load s (r1 ++ r2) j = add (table_load s r1 j) (table_load s r2 j).
  Proof.
    induction r1 as [|r r1 IH]; simpl; [ring|].
    destruct (Z.eqb (l_junction r) j); rewrite IH; ring.
  Qed.

  (* row order of a table is irrelevant *)
  Lemma table_load_perm s rows rows' j : Permutation rows rows' -> table_load s rows j = table_load s rows' j.
  Proof.
    induction 1 as [|x l l' _ IH|x y l|l l' l'' _ IH1 _ IH2]; simpl.
    - reflexivity.
    - rewrite IH; reflexivity.
    - destruct (Z.eqb (l_junction y) j), (Z.eqb (l_junction x) j); ring.
    - rewrite IH1; exact IH2.
  Qed.

  Lemma total_load_app t1 t2 j : total_load (t1 ++ t2) j = add (total_load t1 j) (total_load t2 j).
  Proof. induction t1 as [|[s r] t1 IH]; simpl; [ring|]. rewrite IH. ring. Qed.

  (* order of the components is irrelevant, and so is the row order inside every table *)
  Lemma total_load_perm t t' j : Permutation t t' -> total_load t j = total_load t' j.
  Proof.
    induction 1 as [|[s r] l l' _ IH|[s1 r1] [s2 r2] l|l l' l'' _ IH1 _ IH2]; simpl.
    - reflexivity.
    - rewrite IH; reflexivity.
    - ring.
    - rewrite IH1; exact IH2.
  Qed.

  (* a table may be split at will: two tables with the same sign are one table *)
  Lemma total_load_split s r1 r2 rest j :
    total_load ((s, r1 ++ r2) :: rest) j = total_load ((s, r1) :: (s, r2) :: rest) j.
  Proof. simpl. rewrite table_load_app. ring. Qed.

  (* an out-of-service row and a row at another junction contribute nothing *)
  Lemma row_out_of_service s r : l_in_service r = false -> row_flow s r = zero.
  Proof. intros H. unfold Model.row_flow. rewrite H. simpl. ring. Qed.

  Lemma table_load_drop_disabled s r rows j :
    l_in_service r = false -> table_load s (r :: rows) j = table_load s rows j.
  Proof.
    intros H. simpl. destruct (Z.eqb (l_junction r) j); [|reflexivity].
    rewrite (row_out_of_service s r H). ring.
  Qed.

  Lemma table_load_other_junction s r rows j :
    l_junction r <> j -> table_load s (r :: rows) j = table_load s rows j.
  Proof. intros H. simpl. destruct (Z.eqb_spec (l_junction r) j); [contradiction|reflexivity]. Qed.

  (* the LOAD entry of a junction is the sum over everything connected to it, taken as one sink *)
  Lemma merged_row_flow tables j : row_flow one (merged_sink tables j) = total_load tables j.
  Proof. unfold Model.row_flow, Model.merged_sink. simpl. ring. Qed.

  Lemma load_merge tables j :
    total_load [(one, [merged_sink tables j])] j = total_load tables j.
  Proof.
    cbn [Model.total_load Model.table_load]. change (l_junction (merged_sink tables j)) with j.
    rewrite Z.eqb_refl, merged_row_flow. ring.
  Qed.

  Lemma load_merge_elsewhere tables j j' : j <> j' -> total_load [(one, [merged_sink tables j])] j' = zero.
  Proof.
    intros H. simpl. destruct (Z.eqb_spec j j'); [contradiction|]. ring.
  Qed.

  Lemma merged_sinks_absent tables js j : ~ In j js -> table_load one (map (merged_sink tables) js) j = zero.
  Proof.
    induction js as [|a js IH]; intros H; [reflexivity|]. cbn [map].
    rewrite table_load_other_junction by (intros E; apply H; left; exact E).
    apply IH. intros Hin. apply H. right. exact Hin.
  Qed.

  (* one merged sink for every junction of a duplicate-free list, all in one table: at each listed junction the
     table carries the load of the original tables *)
  Lemma merged_sinks_load tables js j : NoDup js -> In j js ->
    table_load one (map (merged_sink tables) js) j = total_load tables j.
  Proof.
    induction 1 as [|a js Ha _ IH]; intros Hin; [destruct Hin|]. cbn [map].
    destruct (Z.eq_dec a j) as [->|Hne].
    - cbn [Model.table_load]. change (l_junction (merged_sink tables j)) with j.
      rewrite Z.eqb_refl, merged_row_flow, (merged_sinks_absent tables js j Ha). ring.
    - rewrite table_load_other_junction by exact Hne.
      destruct Hin as [E|Hin]; [contradiction|]. exact (IH Hin).
  Qed.

  (* a source is a sink of the negated flow (Sink.sign = 1, Source.sign = -1) *)
  Lemma source_is_negative_sink r : row_flow (opp one) r = row_flow one (negate_row r).
  Proof. unfold Model.row_flow, Model.negate_row. simpl. ring. Qed.

  (* closed form: LOAD_j = sum over the tables of  sign * sum of in_service * scaling * mdot  at j *)
  Lemma table_load_sign s rows j : table_load s rows j = mul s (table_load one rows j).
  Proof.
    induction rows as [|r rows IH]; simpl; [ring|].
    destruct (Z.eqb (l_junction r) j); [|exact IH]. rewrite IH. unfold Model.row_flow. ring.
  Qed.

  Lemma load_is_sinks_plus_storages_minus_sources sinks sources storages j :
    total_load [(one, sinks); (opp one, sources); (one, storages)] j
    = sub (add (table_load one sinks j) (table_load one storages j)) (table_load one sources j).
  Proof. simpl. rewrite (table_load_sign (opp one) sources j). ring. Qed.
End Loads.

(* ===================================================================================== B. sections *)
From PP Require Import Gen.KHydIncompNp Gen.KHydIncompNb C09.KernelFacts.
Open Scope R_scope.

Definition Rinj := @inj R 0 1 Rplus.
Definition Rvinterp1 := @vinterp1 R 0 1 Rplus Rmult Rminus Rdiv.
Definition Rsection_heights := @section_heights R 0 1 Rplus Rmult Rminus Rdiv.
Definition Rsec_length := @sec_length R 0 1 Rplus Rmult Rdiv.
Definition Rsec_zeta := @sec_zeta R 0 1 Rplus Rdiv.

Lemma Rinj_INR n : Rinj n = INR n.
Proof.
  induction n as [|k IH]; [reflexivity|]. unfold Rinj in *. simpl inj. rewrite IH, S_INR. reflexivity.
Qed.

Lemma Rinj_pos n : (1 <= n)%nat -> 0 < Rinj n.
Proof. intros H. rewrite Rinj_INR. apply lt_0_INR. lia. Qed.

Lemma Rthousand : @thousand R 0 1 Rplus Rmult = 1000.
Proof. unfold thousand, ten. simpl. ring. Qed.

Lemma Rsec_length_eq len n : Rsec_length len n = len * 1000 / INR n.
Proof. unfold Rsec_length, sec_length. rewrite Rthousand. fold Rinj. rewrite Rinj_INR. reflexivity. Qed.

Lemma Rsec_zeta_eq zeta n : Rsec_zeta zeta n = zeta / INR n.
Proof. unfold Rsec_zeta, sec_zeta. fold Rinj. rewrite Rinj_INR. reflexivity. Qed.

(* a one-section pipe gets its own length and loss coefficient *)
Lemma sec_single len zeta : Rsec_length len 1 = len * 1000 /\ Rsec_zeta zeta 1 = zeta.
Proof. rewrite Rsec_length_eq, Rsec_zeta_eq. simpl INR. split; field. Qed.

(* the n section lengths and the n section loss coefficients add up to those of the pipe *)
Lemma sec_total len zeta n : (1 <= n)%nat ->
  INR n * Rsec_length len n = Rsec_length len 1 /\ INR n * Rsec_zeta zeta n = Rsec_zeta zeta 1.
Proof.
  intros H. assert (Hn : INR n <> 0) by (apply not_0_INR; lia).
  rewrite !Rsec_length_eq, !Rsec_zeta_eq. simpl (INR 1). split; field; exact Hn.
Qed.

Lemma vinterp1_length lo hi k : length (Rvinterp1 lo hi k) = k.
Proof. unfold Rvinterp1, vinterp1. rewrite map_length, seq_length. reflexivity. Qed.

Lemma vinterp1_nth lo hi k i : (i < k)%nat ->
  nth i (Rvinterp1 lo hi k) 0 = lo + (hi - lo) / INR (S k) * INR (S i).
Proof.
  intros H. unfold Rvinterp1, vinterp1.
  set (f := fun c : nat => lo + (hi - lo) / inj 0 1 Rplus (S k) * inj 0 1 Rplus c).
  rewrite (nth_indep _ 0 (f O)) by (rewrite map_length, seq_length; exact H).
  rewrite map_nth, seq_nth by exact H. unfold f. fold Rinj. rewrite !Rinj_INR. reflexivity.
Qed.

(* declared the other way round, the internal heights come in reverse order *)
Lemma vinterp1_reverse lo hi k : Rvinterp1 hi lo k = rev (Rvinterp1 lo hi k).
Proof.
  apply (nth_ext _ _ 0 0).
  - rewrite rev_length, !vinterp1_length. reflexivity.
  - intros i Hi. rewrite vinterp1_length in Hi.
    rewrite rev_nth by (rewrite vinterp1_length; exact Hi).
    rewrite vinterp1_length, !vinterp1_nth by lia.
    replace (S (k - S i)) with (S k - S i)%nat by lia.
    rewrite minus_INR by lia.
    assert (Hk : INR (S k) <> 0) by (apply not_0_INR; lia).
    field. exact Hk.
Qed.

Lemma section_heights_length hf ht n : (1 <= n)%nat -> length (Rsection_heights hf ht n) = S n.
Proof.
  intros H. unfold Rsection_heights, section_heights. fold Rvinterp1.
  simpl. rewrite app_length, vinterp1_length. simpl. lia.
Qed.

(* equidistant: node k of the n + 1 nodes along the pipe lies at the share k / n of the height difference *)
Lemma section_heights_nth hf ht n k : (1 <= n)%nat -> (k <= n)%nat ->
  nth k (Rsection_heights hf ht n) 0 = hf + (ht - hf) * INR k / INR n.
Proof.
  intros Hn Hk. unfold Rsection_heights, section_heights. fold Rvinterp1.
  destruct n as [|j]; [lia|]. replace (S j - 1)%nat with j by lia.
  assert (Hj : INR (S j) <> 0) by (apply not_0_INR; lia).
  destruct k as [|i]; cbn [nth].
  - simpl INR. field. exact Hj.
  - destruct (Nat.eq_dec i j) as [->|Hij].
    + rewrite app_nth2, vinterp1_length, Nat.sub_diag by (rewrite vinterp1_length; lia).
      cbn [nth]. field. exact Hj.
    + rewrite app_nth1, vinterp1_nth by (rewrite ?vinterp1_length; lia). field. exact Hj.
Qed.

Lemma section_heights_ends hf ht n : (1 <= n)%nat ->
  nth 0 (Rsection_heights hf ht n) 0 = hf /\ nth n (Rsection_heights hf ht n) 0 = ht.
Proof.
  intros H. assert (Hn : INR n <> 0) by (apply not_0_INR; lia).
  split; rewrite section_heights_nth by lia; [simpl INR|]; field; exact Hn.
Qed.

Fixpoint sumR (n : nat) (f : nat -> R) : R :=
  match n with O => 0 | S k => sumR k f + f k end.

Lemma sumR_ext n f g : (forall k, f k = g k) -> sumR n f = sumR n g.
Proof. intros H. induction n as [|n IH]; [reflexivity|]. cbn [sumR]. rewrite IH, H. reflexivity. Qed.

Lemma sumR_const n c : sumR n (fun _ => c) = INR n * c.
Proof. induction n as [|k IH]; [simpl; lra|]. simpl sumR. rewrite IH, S_INR. lra. Qed.

Lemma sumR_zero n f : (forall i, (i < n)%nat -> f i = 0) -> sumR n f = 0.
Proof.
  induction n as [|k IH]; intros H; simpl; [reflexivity|].
  rewrite IH by (intros; apply H; lia). rewrite H by lia. lra.
Qed.

(* n liquid branches in series, with the same cross section, friction factor and flow: lengths L k, loss coefficients
   z k, between nodes at heights h k with absolute pressures q k.  Their residuals add up to the residual of one branch
   of the summed length and loss coefficient between the two outer nodes: heights and pressures of the inner nodes
   cancel (KernelFacts.incomp_residual_series_np, once per inner node). *)
Lemma residuals_in_series A D lam m dl rho (L z h q : nat -> R) n :
  sumR n (fun k => hyd_incomp_np_load_vec A D lam (L k) (z k) m 0 dl (h k - h (S k)) (q (S k)) (q k) rho)
  = hyd_incomp_np_load_vec A D lam (sumR n L) (sumR n z) m 0 dl (h O - h n) (q n) (q O) rho.
Proof.
  induction n as [|n IH]; cbn [sumR].
  - unfold hyd_incomp_np_load_vec. cbv zeta. unfold Rdiv. ring.
  - rewrite IH, (incomp_residual_series_np A D lam m dl dl dl).
    replace (h O - h n + (h n - h (S n))) with (h O - h (S n)) by ring. reflexivity.
Qed.

(* residual of section k of a pipe cut into n sections: parameters as the pit holds them
   (Model.sec_length, Model.sec_zeta, Model.section_heights), PL = 0, q = absolute pressure along the chain *)
Definition section_residual_np (A D lam len_km zeta m dl rho hf ht : R) (q : nat -> R) (n k : nat) : R :=
  hyd_incomp_np_load_vec A D lam (Rsec_length len_km n) (Rsec_zeta zeta n) m 0 dl
    (nth k (Rsection_heights hf ht n) 0 - nth (S k) (Rsection_heights hf ht n) 0) (q (S k)) (q k) rho.
Definition section_residual_nb (A D lam len_km zeta m dl rho hf ht : R) (q : nat -> R) (n k : nat) : R :=
  hyd_incomp_nb_load_vec A D lam (Rsec_length len_km n) (Rsec_zeta zeta n) m 0 dl
    (nth k (Rsection_heights hf ht n) 0 - nth (S k) (Rsection_heights hf ht n) 0) (q (S k)) (q k) rho.

Lemma section_residual_twin A D lam len_km zeta m dl rho hf ht q n k :
  section_residual_nb A D lam len_km zeta m dl rho hf ht q n k = section_residual_np A D lam len_km zeta m dl rho hf ht q n k.
Proof. apply incomp_residual_twin. Qed.

(* the sections of a pipe are such a series: n equal lengths and loss coefficients that add up to the pipe's (sec_total),
   heights running from hf to ht *)
Lemma sections_telescope_np : forall n A D lam len_km zeta m dl rho hf ht (q : nat -> R), (1 <= n)%nat ->
  sumR n (section_residual_np A D lam len_km zeta m dl rho hf ht q n)
  = section_residual_np A D lam len_km zeta m dl rho hf ht (fun k => if Nat.eqb k 0 then q O else q n) 1 0.
Proof.
  intros n A D lam len_km zeta m dl rho hf ht q Hn. unfold section_residual_np.
  rewrite (residuals_in_series A D lam m dl rho (fun _ => Rsec_length len_km n) (fun _ => Rsec_zeta zeta n)
             (fun k => nth k (Rsection_heights hf ht n) 0) q n).
  rewrite !sumR_const.
  destruct (sec_total len_km zeta n Hn) as [-> ->].
  destruct (section_heights_ends hf ht n Hn) as [-> ->]. reflexivity.
Qed.

(* ===================================================================================== C. chaining of FROM_NODE / TO_NODE *)
Lemma chain_one_length {T} start (p : @pipe T) : (1 <= p_sections p)%nat -> length (chain_one start p) = p_sections p.
Proof.
  intros H. unfold chain_one, int_nodes. rewrite combine_length. cbn [length].
  rewrite app_length, seq_length. cbn [length]. lia.
Qed.

(* section k of a pipe starts where section k-1 ends; the first starts at the from junction, the last ends at the to junction *)
Lemma chain_one_nth {T} start (p : @pipe T) k : (k < p_sections p)%nat ->
  nth k (chain_one start p) (O, O) =
  ((if Nat.eqb k 0 then p_from p else start + (k - 1))%nat,
   (if Nat.eqb (S k) (p_sections p) then p_to p else start + k)%nat).
Proof.
  intros Hk. unfold chain_one, int_nodes.
  rewrite combine_nth by (cbn [length]; rewrite app_length, seq_length; cbn [length]; lia).
  f_equal.
  - destruct k as [|k]; [reflexivity|]. simpl. rewrite seq_nth by lia. f_equal. lia.
  - destruct (Nat.eqb_spec (S k) (p_sections p)) as [E|E].
    + rewrite app_nth2 by (rewrite seq_length; lia). rewrite seq_length.
      replace (k - (p_sections p - 1))%nat with O by lia. reflexivity.
    + rewrite app_nth1 by (rewrite seq_length; lia). rewrite seq_nth by lia. reflexivity.
Qed.

(* the reversed pipe has the mirrored chain: section k of the reversed pipe is section n-1-k of the original with
   its two ends exchanged and the internal nodes renumbered i |-> start + (n-2) - (i - start) *)
Definition mirror (start n i : nat) : nat := (start + (n - 2) - (i - start))%nat.

Lemma chain_one_reverse {T} start (p : @pipe T) k : (k < p_sections p)%nat ->
  let n := p_sections p in
  let '(a, b) := nth (n - 1 - k) (chain_one start p) (O, O) in
  nth k (chain_one start (reverse_pipe p)) (O, O) =
  ((if Nat.eqb k 0 then b else mirror start n b), (if Nat.eqb (S k) n then a else mirror start n a)).
Proof.
  intros Hk n. subst n.
  rewrite (chain_one_nth start p (p_sections p - 1 - k)), (chain_one_nth start (reverse_pipe p) k) by (simpl; lia).
  cbn [reverse_pipe p_sections p_from p_to]. cbv iota.
  (* section n-1-k is the first exactly if k is the last, and the last exactly if k is the first *)
  replace (Nat.eqb (p_sections p - 1 - k) 0) with (Nat.eqb (S k) (p_sections p))
    by (apply eq_iff_eq_true; rewrite !Nat.eqb_eq; lia).
  replace (Nat.eqb (S (p_sections p - 1 - k)) (p_sections p)) with (Nat.eqb k 0)
    by (apply eq_iff_eq_true; rewrite !Nat.eqb_eq; lia).
  unfold mirror.
  destruct (Nat.eqb_spec k 0), (Nat.eqb_spec (S k) (p_sections p)); f_equal; lia.
Qed.

Lemma map_pair_combine {X Y} (f : X -> Y) (l1 l2 : list X) :
  map (fun ab => (f (fst ab), f (snd ab))) (combine l1 l2) = combine (map f l1) (map f l2).
Proof.
  revert l2. induction l1 as [|a l1 IH]; intros [|b l2]; simpl; try reflexivity. rewrite IH. reflexivity.
Qed.

Definition series_pieces {T} (p : @pipe T) (js : list nat) (len zeta : T) : list (@pipe T) :=
  map (fun ab => Build_pipe (fst ab) (snd ab) 1 len zeta) (combine (p_from p :: js) (js ++ [p_to p])).

Lemma chain_single_sections {T} start (ends : list (nat * nat)) (len zeta : T) :
  chain start (map (fun ab => Build_pipe (fst ab) (snd ab) 1 len zeta) ends) = ends.
Proof.
  revert start. induction ends as [|[a b] r IH]; intros start; simpl; [reflexivity|].
  unfold chain_one, int_nodes. simpl. rewrite IH. reflexivity.
Qed.

(* the chain of an n-section pipe is, up to a renaming rho of its internal nodes into new junctions js, the chain of the
   n one-section pipes from -> js_1 -> ... -> js_(n-1) -> to *)
Lemma chain_sections_eq_series {T} start start' (p : @pipe T) (rho : nat -> nat) js len zeta :
  rho (p_from p) = p_from p -> rho (p_to p) = p_to p -> map rho (seq start (int_nodes p)) = js ->
  map (fun ab => (rho (fst ab), rho (snd ab))) (chain_one start p) = chain start' (series_pieces p js len zeta).
Proof.
  intros Hf Ht Hj. unfold series_pieces. rewrite chain_single_sections.
  unfold chain_one. rewrite map_pair_combine. simpl map. rewrite map_app. simpl map.
  rewrite Hf, Ht, Hj. reflexivity.
Qed.
