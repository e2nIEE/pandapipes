(* C12 - proofs over the abstract state model (C12/Model.v). *)
From Coq Require Import String List Bool Arith.
From PP Require Import C12.Model.
Import ListNotations.
Open Scope string_scope.

Lemma mem_In k l : mem k l = true <-> In k l.
Proof.
  induction l as [|x r IH]; simpl.
  - split; [discriminate | tauto].
  - rewrite orb_true_iff, String.eqb_eq, IH. split; intros [H|H]; auto.
Qed.

Lemma memp_In c k l : memp c k l = true <-> In (c, k) l.
Proof.
  induction l as [|[c' k'] r IH]; simpl.
  - split; [discriminate | tauto].
  - rewrite orb_true_iff, andb_true_iff, Nat.eqb_eq, String.eqb_eq, IH.
    split; (intros [H|H]; [left | now right]).
    + destruct H. now subst.
    + now inversion H.
Qed.

Lemma memk_In k l : memk k l = true <-> exists c, In (c, k) l.
Proof.
  induction l as [|[c' k'] r IH]; simpl.
  - split; [discriminate | intros [c []]].
  - rewrite orb_true_iff, String.eqb_eq, IH. split.
    + intros [->|[c H]]; eauto.
    + intros [c [H|H]]; [inversion H|]; eauto.
Qed.

Lemma inter_In k a b : In k (inter a b) <-> In k a /\ In k b.
Proof.
  induction a as [|x r IH]; simpl; [tauto|].
  destruct (mem x b) eqn:E; simpl; rewrite IH.
  - apply mem_In in E. split; [intros [->|[H1 H2]] | intros [[->|H1] H2]]; auto.
  - split; [intros [H1 H2]; auto|]. intros [[->|H] Hb]; auto. apply mem_In in Hb. congruence.
Qed.

Lemma interp_In c k a b : In (c, k) (interp a b) <-> In (c, k) a /\ In (c, k) b.
Proof.
  induction a as [|[c' k'] r IH]; simpl; [tauto|].
  destruct (memp c' k' b) eqn:E; simpl; rewrite IH.
  - apply memp_In in E. split; [intros [[= <- <-]|[H1 H2]] | intros [[[= <- <-]|H1] H2]]; auto.
  - split; [intros [H1 H2]; auto|]. intros [[[= <- <-]|H] Hb]; auto. apply memp_In in Hb. congruence.
Qed.

Lemma add_In x k l : In x (add k l) <-> x = k \/ In x l.
Proof.
  unfold add. destruct (mem k l) eqn:E; simpl.
  - apply mem_In in E. split; [auto | intros [->|H]; auto].
  - split; intros [H|H]; auto.
Qed.

Lemma addp_In c' k c ks dp : In (c', k) (addp c ks dp) <-> (c' = c /\ In k ks) \/ In (c', k) dp.
Proof.
  induction ks as [|x r IH]; simpl; [tauto|].
  destruct (memp c x (addp c r dp)) eqn:E; simpl; rewrite IH.
  - split; [intros [[H1 H2]|H]; auto|]. intros [[-> [<-|H]]|H]; auto. apply IH, memp_In, E.
  - split.
    + intros [[= -> ->]|[[H1 H2]|H]]; auto.
    + intros [[-> [->|H]]|H]; auto.
Qed.

Section Frame.
  Variable V : Type.
  Variable fw : nat -> key -> list V -> V.
  Variable fb : list V -> nat -> bool.
  Variable present : nat -> V -> bool.
  Variable N : nat.

  Notation exec := (exec V fw fb present N).

  Lemma upd_other (s : key -> V) k v k' : is_user k = false -> is_user k' = true -> upd s k v k' = s k'.
  Proof.
    intros Hk Hk'. unfold upd. destruct (String.eqb_spec k' k) as [->|]; [congruence | reflexivity].
  Qed.

  Lemma iter_loop_frame (body : st V -> result V) k :
    (forall s, sigma (state_of (body s)) k = sigma s k) ->
    forall n s, sigma (state_of (iter_loop V fb body n s)) k = sigma s k.
  Proof.
    intros Hb. induction n as [|n IHn]; intros s; simpl; auto.
    destruct (fb (log s) (ctr s)); auto.
    specialize (Hb (mk (sigma s) (log s) (S (ctr s)))).
    destruct (body _); simpl in *; auto. now rewrite IHn.
  Qed.

  Lemma frame_lemma : forall p, writes_user p = false ->
    forall s k, is_user k = true -> sigma (state_of (exec p s)) k = sigma s k.
  Proof.
    induction p; simpl; intros Hw s k0 Hk; auto using upd_other.
    - (* Seq *) apply orb_false_iff in Hw. destruct Hw as [H1 H2].
      specialize (IHp1 H1 s k0 Hk). destruct (exec p1 s); simpl in *; auto.
      now rewrite IHp2.
    - (* Choice *) apply orb_false_iff in Hw. destruct Hw as [H1 H2].
      destruct (fb (log s) (ctr s)); [rewrite IHp1 | rewrite IHp2]; auto.
    - (* Loop *) apply iter_loop_frame. auto.
    - (* IfComp *) destruct (present c (sigma s CL)); auto.
  Qed.
End Frame.

Section ScanFacts.
  Variable E : list key.

  Definition sub (a b : dset) : Prop :=
    (forall k, In k (fst a) -> In k (fst b)) /\ (forall c k, In (c, k) (snd a) -> In (c, k) (snd b)).

  Lemma sub_refl a : sub a a. Proof. split; auto. Qed.
  Lemma sub_trans a b c : sub a b -> sub b c -> sub a c.
  Proof. intros [H1 H2] [H3 H4]. split; auto. Qed.

  Lemma sub_add k d : sub d (add k (fst d), snd d).
  Proof. split; simpl; auto. intros. apply add_In. auto. Qed.

  Lemma meet_sub x y :
    sub (inter (fst x) (fst y), interp (snd x) (snd y)) x /\
    sub (inter (fst x) (fst y), interp (snd x) (snd y)) y.
  Proof.
    repeat split; simpl; intros * H;
      [apply inter_In in H | apply interp_In in H | apply inter_In in H | apply interp_In in H]; apply H.
  Qed.

  Lemma scan_grows : forall p cur d d', scan E cur p d = Ok d' -> sub d d'.
  Proof.
    induction p; simpl; intros cur d d' H.
    - injection H as <-. apply sub_refl.
    - destruct (defd E cur d k); [|discriminate]. injection H as <-. apply sub_refl.
    - destruct (String.eqb k CL); [discriminate|]. injection H as <-. apply sub_add.
    - destruct (String.eqb k CL); [discriminate|]. injection H as <-. apply sub_add.
    - destruct (String.eqb dst CL); [discriminate|].
      destruct (defd E cur d src); [injection H as <-; apply sub_add|].
      destruct (_ || memk dst (snd d)); [discriminate|]. injection H as <-. apply sub_refl.
    - discriminate.
    - destruct (scan E cur p1 d) eqn:E1; try discriminate.
      eapply sub_trans; eauto.
    - destruct (scan E cur p1 d) eqn:E1, (scan E cur p2 d) eqn:E2; try discriminate; injection H as <-; eauto.
      destruct (IHp1 _ _ _ E1), (IHp2 _ _ _ E2). split; simpl; intros *.
      + rewrite inter_In. auto.
      + rewrite interp_In. auto.
    - destruct (scan E cur p d); [discriminate| |]; injection H as <-; apply sub_refl.
    - destruct (scan E (Some c) p d); [discriminate| |]; injection H as <-.
      + apply sub_refl.
      + split; simpl; auto. intros. apply addp_In. auto.
  Qed.
End ScanFacts.

(* the scan looks at its exception list through membership only *)
Lemma scan_ext E E' (HE : forall k, mem k E = mem k E') : forall p cur d, scan E cur p d = scan E' cur p d.
Proof.
  assert (D : forall cur d k, defd E cur d k = defd E' cur d k) by (intros; unfold defd; now rewrite HE).
  induction p; intros cur d; cbn [scan]; rewrite ?D, ?HE, ?IHp, ?IHp1, ?IHp2; auto.
  destruct (scan E' cur p1 d); auto.
Qed.

Section Sound.
  Variable V : Type.
  Variable fw : nat -> key -> list V -> V.
  Variable fb : list V -> nat -> bool.
  Variable present : nat -> V -> bool.
  Variable N : nat.
  Variable E : list key.
  Variable cl : V.                    (* the value of net["component_list"] during the call *)

  Notation exec := (exec V fw fb present N).

  (* the keys on which two runs are known to hold the same value *)
  Definition known (d : dset) (k : key) : Prop :=
    is_user k = true \/ In k E \/ In k (fst d) \/ (exists c, In (c, k) (snd d) /\ present c cl = true).

  (* A holds of every key known at d ([known d k] written out) *)
  Definition covers (A : key -> Prop) (d : dset) : Prop :=
    forall k, (is_user k = true \/ In k E \/ In k (fst d) \/
               (exists c, In (c, k) (snd d) /\ present c cl = true)) -> A k.

  Definition agree (A : key -> Prop) (s1 s2 : key -> V) : Prop := forall k, A k -> s1 k = s2 k.

  Definition cur_ok (cur : option nat) : Prop := forall c, cur = Some c -> present c cl = true.

  Lemma is_user_CL : is_user CL = true. Proof. reflexivity. Qed.

  (* What the scan guarantees: two executions that start from states agreeing on the user part, the
     named exceptions and whatever this call has already written, with the same arguments (log),
     take the same decisions, read the same values, end the same way, and their final states agree on
     everything the call has written by then (the last clause is [agree (known d')]: [related_twins]). *)
  Definition related (v : verdict) (r1 r2 : result V) : Prop :=
    match r1, r2 with
    | Normal s1, Normal s2 =>
        log s1 = log s2 /\ ctr s1 = ctr s2 /\ sigma s1 CL = cl /\ sigma s2 CL = cl /\
        exists d', v = Ok d' /\ exists A', covers A' d' /\ agree A' (sigma s1) (sigma s2)
    | Aborted f1 s1, Aborted f2 s2 => f1 = f2 /\ log s1 = log s2
    | _, _ => False
    end.

  Lemma known_sub d d' k : sub d d' -> known d k -> known d' k.
  Proof.
    intros [H1 H2] [H|[H|[H|[c [H H']]]]]; unfold known; auto.
    right. right. right. exists c. auto.
  Qed.

  Lemma defd_known cur d k : cur_ok cur -> defd E cur d k = true -> known d k.
  Proof.
    intros Hcur H. unfold defd in H.
    repeat (apply orb_prop in H; destruct H as [H|H]); try apply mem_In in H; unfold known; auto.
    destruct cur as [c|]; [|discriminate]. apply memp_In in H.
    right. right. right. exists c. auto.
  Qed.

  Lemma known_add d k k' : known (add k (fst d), snd d) k' -> k' = k \/ known d k'.
  Proof.
    intros [H|[H|[H|H]]]; unfold known; auto.
    apply add_In in H. destruct H; auto.
  Qed.

  Lemma known_addp d c ks k :
    known (fst d, addp c ks (snd d)) k -> known d k \/ present c cl = true /\ In k ks.
  Proof.
    intros [H|[H|[H|[c' [H H']]]]]; unfold known; auto.
    apply addp_In in H. destruct H as [[-> H]|H]; [auto|].
    left. right. right. right. exists c'. auto.
  Qed.

  Lemma known_guard d k : known d k -> is_user k || mem k E || mem k (fst d) || memk k (snd d) = true.
  Proof.
    intros [H|[H|[H|[c [H _]]]]].
    - now rewrite H.
    - apply mem_In in H. now rewrite H, orb_true_r.
    - apply mem_In in H. now rewrite H, orb_true_r.
    - assert (G : memk k (snd d) = true) by (apply memk_In; eauto). now rewrite G, orb_true_r.
  Qed.

  (* the invariant of the simulation: same log and decision counter, the component list in place, and
     agreement on every known key *)
  Definition twins (d : dset) (s1 s2 : st V) : Prop :=
    log s1 = log s2 /\ ctr s1 = ctr s2 /\ sigma s1 CL = cl /\ sigma s2 CL = cl /\
    agree (known d) (sigma s1) (sigma s2).

  Lemma related_twins d s1 s2 : related (Ok d) (Normal s1) (Normal s2) <-> twins d s1 s2.
  Proof.
    unfold twins. simpl. split.
    - intros (L & C & C1 & C2 & d' & [= <-] & A & Hc & Ha). repeat split; auto.
      intros k Hk. apply Ha, Hc, Hk.
    - intros (L & C & C1 & C2 & Ha). repeat split; auto.
      exists d. split; auto. exists (known d). split; auto. intros k Hk. exact Hk.
  Qed.

  (* under verdict Top both runs raise, and runs that raise are related under any verdict *)
  Lemma related_top v r1 r2 : related Top r1 r2 -> related v r1 r2.
  Proof. destruct r1, r2; simpl; auto. intros (_ & _ & _ & _ & d & [=] & _). Qed.

  Lemma related_weaken d d' r1 r2 :
    (forall k, known d k -> known d' k) -> related (Ok d') r1 r2 -> related (Ok d) r1 r2.
  Proof.
    intros Hk. destruct r1, r2; auto. rewrite !related_twins.
    intros (L & C & C1 & C2 & Ha). repeat split; auto. intros k H. apply Ha, Hk, H.
  Qed.

  (* sequencing: after related first parts, continuations that are related on twins give related wholes *)
  Lemma related_bind v va r1 r2 (k : st V -> result V) :
    related va r1 r2 ->
    (forall d' s1 s2, va = Ok d' -> twins d' s1 s2 -> related v (k s1) (k s2)) ->
    related v (match r1 with Normal s => k s | Aborted f s => Aborted f s end)
              (match r2 with Normal s => k s | Aborted f s => Aborted f s end).
  Proof.
    destruct r1 as [s1|f1 s1], r2 as [s2|f2 s2]; simpl; auto; try contradiction.
    intros (L & C & C1 & C2 & d' & Hd & R) Hk. apply (Hk d' s1 s2 Hd).
    apply related_twins. simpl. eauto 10.
  Qed.

  Lemma twins_tick d s1 s2 : twins d s1 s2 ->
    fb (log s1) (ctr s1) = fb (log s2) (ctr s2) /\
    twins d (mk (sigma s1) (log s1) (S (ctr s1))) (mk (sigma s2) (log s2) (S (ctr s2))).
  Proof. intros (L & C & R). unfold twins. simpl. rewrite L, C. auto. Qed.

  Lemma twins_upd d s1 s2 k v1 v2 : String.eqb k CL = false -> twins d s1 s2 -> v1 = v2 ->
    twins (add k (fst d), snd d) (mk (upd (sigma s1) k v1) (log s1) (ctr s1))
                                 (mk (upd (sigma s2) k v2) (log s2) (ctr s2)).
  Proof.
    intros Hk (L & C & C1 & C2 & Ha) <-. unfold twins, upd. cbn [sigma log ctr].
    rewrite String.eqb_sym in Hk. rewrite Hk. repeat split; auto.
    intros k' Hk'. destruct (String.eqb_spec k' k) as [->|Hne]; auto.
    apply Ha. apply known_add in Hk'. tauto.
  Qed.

  Lemma twins_upd_unknown d s1 s2 k v1 v2 : String.eqb k CL = false ->
    is_user k || mem k E || mem k (fst d) || memk k (snd d) = false -> twins d s1 s2 ->
    twins d (mk (upd (sigma s1) k v1) (log s1) (ctr s1)) (mk (upd (sigma s2) k v2) (log s2) (ctr s2)).
  Proof.
    intros Hk Hu (L & C & C1 & C2 & Ha). unfold twins, upd. cbn [sigma log ctr].
    rewrite String.eqb_sym in Hk. rewrite Hk. repeat split; auto.
    intros k' Hk'. destruct (String.eqb_spec k' k) as [->|Hne]; auto.
    apply known_guard in Hk'. congruence.
  Qed.

  Lemma iter_loop_twins d (body : st V -> result V) n :
    (forall s1 s2, twins d s1 s2 -> related (Ok d) (body s1) (body s2)) ->
    forall s1 s2, twins d s1 s2 ->
      related (Ok d) (iter_loop V fb body n s1) (iter_loop V fb body n s2).
  Proof.
    intros Hb. induction n as [|n IHn]; intros s1 s2 Ht; simpl.
    - now apply related_twins.
    - destruct (twins_tick _ _ _ Ht) as [<- Ht']. destruct (fb (log s1) (ctr s1)).
      + apply related_bind with (va := Ok d); auto. intros d' t1 t2 [= <-]. apply IHn.
      + now apply related_twins.
  Qed.

  Lemma sound_twins : forall p cur d, cur_ok cur -> (forall f k, scan E cur p d <> Reject f k) ->
    forall s1 s2, twins d s1 s2 -> related (scan E cur p d) (exec p s1) (exec p s2).
  Proof.
    induction p; intros cur d Hcur Hnr s1 s2 Ht; cbn [scan Model.exec] in *.
    - (* Skip *) now apply related_twins.
    - (* Rd *) destruct (defd E cur d k) eqn:Ed; [|now elim (Hnr f k)].
      apply related_twins. destruct Ht as (L & C & C1 & C2 & Ha). unfold twins. cbn [sigma log ctr].
      rewrite L, (Ha k) by (eapply defd_known; eauto). auto.
    - (* Wr *) destruct (String.eqb k CL) eqn:Ek; [now elim (Hnr f k)|].
      apply related_twins, twins_upd; auto. f_equal. apply Ht.
    - (* Del *) destruct (String.eqb k CL) eqn:Ek; [now elim (Hnr f k)|].
      apply related_twins, twins_upd; auto. f_equal. apply Ht.
    - (* Cp *) destruct (String.eqb dst CL) eqn:Ek; [now elim (Hnr f dst)|].
      destruct (defd E cur d src) eqn:Ed.
      + apply related_twins, twins_upd; auto. apply Ht. eapply defd_known; eauto.
      + destruct (_ || memk dst (snd d)) eqn:Eu; [now elim (Hnr f dst)|].
        apply related_twins, twins_upd_unknown; auto.
    - (* Abort *) split; [reflexivity | apply Ht].
    - (* Seq *) apply related_bind with (va := scan E cur p1 d).
      + apply IHp1; auto. intros f k H. apply (Hnr f k). now rewrite H.
      + intros d' t1 t2 Hd Ht'. rewrite Hd in *. apply IHp2; auto.
    - (* Choice *) destruct (twins_tick _ _ _ Ht) as [<- Ht'].
      specialize (IHp1 cur d Hcur). specialize (IHp2 cur d Hcur).
      destruct (scan E cur p1 d) as [f k| |x], (scan E cur p2 d) as [f' k'| |y];
        try (now elim (Hnr _ _ eq_refl));
        specialize (IHp1 ltac:(discriminate) _ _ Ht'); specialize (IHp2 ltac:(discriminate) _ _ Ht');
        destruct (fb (log s1) (ctr s1)); auto using related_top.
      + apply related_weaken with x; auto. intros k. apply known_sub, meet_sub.
      + apply related_weaken with y; auto. intros k. apply known_sub, meet_sub.
    - (* Loop *) specialize (IHp cur d Hcur).
      destruct (scan E cur p d) as [f k| |d'] eqn:Es; [now elim (Hnr f k) | |];
        apply iter_loop_twins; auto; intros t1 t2 Ht'.
      + apply related_top, IHp; [discriminate | auto].
      + apply related_weaken with d'; [|apply IHp; [discriminate | auto]].
        intros k. apply known_sub. eapply scan_grows, Es.
    - (* IfComp *)
      assert (Ht' := Ht). destruct Ht' as (_ & _ & -> & -> & _).
      destruct (present c cl) eqn:Ep.
      + assert (Hcur' : cur_ok (Some c)) by (intros c' [= <-]; exact Ep).
        specialize (IHp (Some c) d Hcur'). destruct (scan E (Some c) p d) as [f k| |d'] eqn:Es.
        * now elim (Hnr f k).
        * apply related_top, IHp; [discriminate | auto].
        * apply related_weaken with d'; [|apply IHp; [discriminate | auto]].
          intros k Hk. apply known_addp in Hk. destruct Hk as [Hk|[_ Hk]].
          -- eapply known_sub; [eapply scan_grows, Es | exact Hk].
          -- apply filter_In in Hk. unfold known. tauto.
      + (* class absent: nothing happens; the conditional facts about c are vacuous *)
        destruct (scan E (Some c) p d) as [f k| |d'].
        * now elim (Hnr f k).
        * now apply related_twins.
        * apply related_weaken with d; [|now apply related_twins].
          intros k Hk. apply known_addp in Hk. destruct Hk as [Hk|[Hk _]]; [auto | congruence].
  Qed.

  Lemma sound : forall p cur d v, scan E cur p d = v -> (forall f k, v <> Reject f k) ->
    cur_ok cur ->
    forall A s1 s2, covers A d -> agree A (sigma s1) (sigma s2) ->
      log s1 = log s2 -> ctr s1 = ctr s2 -> sigma s1 CL = cl -> sigma s2 CL = cl ->
      related v (exec p s1) (exec p s2).
  Proof.
    intros p cur d v <- Hnr Hcur A s1 s2 Hc Ha Hl Hn H1 H2. apply sound_twins; auto.
    repeat split; auto. intros k Hk. apply Ha, Hc, Hk.
  Qed.
End Sound.

Lemma lookup_frame : forall table c,
  forallb (fun x : string * bool * bool * prog => negb (writes_user (snd x))) table = true ->
  writes_user (lookup_prog table c) = false.
Proof.
  induction table as [|[[[m u] r] p] rest IH]; intros c H; auto.
  simpl in H. apply andb_true_iff in H. destruct H as [Hp Hr].
  cbn [lookup_prog]. destruct (cfg_eqb (m, u, r) c); [now apply negb_true_iff in Hp | now apply IH].
Qed.

Lemma cfg_eqb_eq a b : cfg_eqb a b = true -> a = b.
Proof.
  destruct a as [[m u] r], b as [[m' u'] r']. simpl. intros H.
  apply andb_true_iff in H. destruct H as [H Hr]. apply andb_true_iff in H. destruct H as [Hm Hu].
  apply String.eqb_eq in Hm. apply Bool.eqb_prop in Hu, Hr. now subst.
Qed.

Lemma cfg_eqb_refl a : cfg_eqb a a = true.
Proof. destruct a as [[m u] r]. simpl. now rewrite String.eqb_refl, !Bool.eqb_reflx. Qed.

(* what the table hands out for the configuration of one of its entries is the program of an entry with that
   configuration (the first one) *)
Lemma lookup_prog_in table m u r p :
  In (m, u, r, p) table -> In (m, u, r, lookup_prog table (m, u, r)) table.
Proof.
  induction table as [|[[[m' u'] r'] p'] rest IH]; intros Hin; [destruct Hin|].
  cbn [lookup_prog]. destruct (cfg_eqb (m', u', r') (m, u, r)) eqn:E.
  - apply cfg_eqb_eq in E. injection E as -> -> ->. now left.
  - destruct Hin as [Hin|Hin]; [|right; now apply IH].
    injection Hin as -> -> -> _. now rewrite cfg_eqb_refl in E.
Qed.

Section Consequences.
  Variable V : Type.
  Variable fw : nat -> key -> list V -> V.
  Variable fb : list V -> nat -> bool.
  Variable present : nat -> V -> bool.
  Variable N : nat.

  Notation exec := (exec V fw fb present N).

  (* keys whose final value is produced by the call itself *)
  Definition produced (E : list key) (p : prog) (cl : V) (k : key) : Prop :=
    In k (fst (final_dset E p)) \/ exists c, In (c, k) (snd (final_dset E p)) /\ present c cl = true.

  (* two calls end the same way, with the same reads, and leave the same values in every produced key *)
  Definition same_result (E : list key) (p : prog) (cl : V) (r1 r2 : result V) : Prop :=
    match r1, r2 with
    | Normal s1, Normal s2 =>
        log s1 = log s2 /\ forall k, produced E p cl k -> sigma s1 k = sigma s2 k
    | Aborted f1 s1, Aborted f2 s2 => f1 = f2 /\ log s1 = log s2
    | _, _ => False
    end.

  Lemma determined : forall E p, accepts E p = true ->
    forall (s1 s2 : key -> V) (kw : V),
      (forall k, is_user k = true \/ In k E -> s1 k = s2 k) ->
      same_result E p (s1 CL) (exec p (mk s1 [kw] 0)) (exec p (mk s2 [kw] 0)).
  Proof.
    intros E p Hacc s1 s2 kw Hag. unfold accepts in Hacc.
    assert (R : related V present E (s1 CL) (scan E None p ([], []))
                  (exec p (mk s1 [kw] 0)) (exec p (mk s2 [kw] 0))).
    { apply sound with (cur := None) (d := ([], [])) (A := fun k => is_user k = true \/ In k E); auto.
      - intros f k H. now rewrite H in Hacc.
      - intros c [=].
      - intros k [H|[H|[[]|[c [[] _]]]]]; auto.
      - symmetry. apply Hag. left. exact is_user_CL. }
    unfold same_result. destruct (exec p (mk s1 [kw] 0)), (exec p (mk s2 [kw] 0)); auto.
    destruct R as (L & _ & _ & _ & d' & Hd' & A' & Hc & Ha).
    split; auto. intros k Hk. apply Ha, Hc.
    unfold produced, final_dset in Hk. rewrite Hd' in Hk. destruct Hk; auto.
  Qed.

  Variable table : list (string * bool * bool * prog).
  Hypothesis table_frame : forallb (fun x => negb (writes_user (snd x))) table = true.

  Notation run := (run V fw fb present N table).
  Notation apply_op := (apply_op V fw fb present N table).
  Notation apply_user_op := (apply_user_op V fw fb present N table).
  Notation after := (after V fw fb present N table).
  Notation description_after := (description_after V fw fb present N table).

  Lemma run_frame c kw s k : is_user k = true -> sigma (state_of (run c kw s)) k = s k.
  Proof. intros Hk. unfold Model.run. rewrite frame_lemma; auto using lookup_frame. Qed.

  Lemma step_user : forall (s s' : key -> V) o,
    (forall k, is_user k = true -> s k = s' k) ->
    forall k, is_user k = true -> apply_op s o k = apply_user_op s' o k.
  Proof.
    intros s s' o H k Hk. destruct o; simpl.
    - rewrite run_frame; auto.
    - destruct (is_user k0); auto. unfold upd. destruct (String.eqb k k0); auto.
    - unfold upd. destruct (String.eqb k "user_pf_options"); auto.
  Qed.

  (* runs never change the description: after any history the user part is what the user's own
     operations made of it *)
  Lemma description_unchanged_by_runs : forall h (s s' : key -> V),
    (forall k, is_user k = true -> s k = s' k) ->
    forall k, is_user k = true -> after h s k = description_after h s' k.
  Proof.
    induction h as [|o h IH]; intros s s' H k Hk; simpl; auto.
    apply IH; auto. intros k' Hk'. apply step_user; auto.
  Qed.

  Variable undef : V.

  Lemma history_independence_lemma : forall h (s0 : key -> V) c kw,
    accepts [] (lookup_prog table c) = true ->
    same_result [] (lookup_prog table c) (after h s0 CL)
      (run c kw (after h s0)) (run c kw (blank undef (description_after h s0))).
  Proof.
    intros h s0 c kw Hacc. apply determined; auto.
    intros k [Hk|[]]. unfold blank. rewrite Hk.
    apply description_unchanged_by_runs; auto.
  Qed.

  Lemma repeat_lemma : forall (s0 : key -> V) c kw,
    accepts [] (lookup_prog table c) = true ->
    same_result [] (lookup_prog table c) (s0 CL)
      (run c kw s0) (run c kw (sigma (state_of (run c kw s0)))).
  Proof.
    intros s0 c kw Hacc. apply determined; auto.
    intros k [Hk|[]]. symmetry. apply run_frame. auto.
  Qed.

  (* a call in a configuration with named exceptions: the outcome is a function of the description,
     the arguments and the excepted keys only, whatever else the history left behind *)
  Lemma exception_lemma : forall h h' (s0 s0' : key -> V) c kw,
    accepts (exceptions c) (lookup_prog table c) = true ->
    (forall k, In k (exceptions c) -> after h s0 k = after h' s0' k) ->
    (forall k, is_user k = true -> description_after h s0 k = description_after h' s0' k) ->
    same_result (exceptions c) (lookup_prog table c) (after h s0 CL)
      (run c kw (after h s0)) (run c kw (after h' s0')).
  Proof.
    intros h h' s0 s0' c kw Hacc HE HU. apply determined; auto.
    intros k [Hk|Hk]; auto.
    rewrite (description_unchanged_by_runs h s0 s0), (description_unchanged_by_runs h' s0' s0'); auto.
  Qed.
End Consequences.

(* a program equal (as decided by prog_eqb) is the same program *)
Lemma prog_eqb_eq : forall a b, prog_eqb a b = true -> a = b.
Proof.
  induction a; destruct b; simpl; intros H; try discriminate; auto;
    repeat (apply andb_prop in H; destruct H as [H ?]);
    repeat match goal with
           | H : Nat.eqb _ _ = true |- _ => apply Nat.eqb_eq in H
           | H : String.eqb _ _ = true |- _ => apply String.eqb_eq in H
           end; subst; f_equal; auto.
Qed.

Lemma phases_eqb_eq : forall a b, phases_eqb a b = true -> a = b.
Proof.
  induction a as [|[n p] r IH]; destruct b as [|[m q] s]; simpl; try discriminate; auto.
  intros H. apply andb_prop in H. destruct H as [H H']. apply andb_prop in H. destruct H as [Hn Hp].
  apply String.eqb_eq in Hn. now rewrite Hn, (prog_eqb_eq _ _ Hp), (IH _ H').
Qed.

Lemma then1_assoc a b c : then1 a (then1 b c) = then1 (then1 a b) c.
Proof. destruct a, b, c; reflexivity. Qed.

Lemma then1_untouched_l b : then1 Untouched b = b.
Proof. destruct b; reflexivity. Qed.

Lemma e_then_in a b x y : e_in a x = true -> e_in b y = true -> e_in (then1 a b) (e_then x y) = true.
Proof.
  intros Ha Hb. destruct a, b; simpl in *; rewrite Ha, Hb; repeat (rewrite ?orb_true_r; simpl); reflexivity.
Qed.

Lemma e_then_inv r x y : e_in r (e_then x y) = true ->
  exists a b, e_in a x = true /\ e_in b y = true /\ r = then1 a b.
Proof.
  assert (Hne : eU x || eW x || eD x || eE x = true -> exists a, e_in a x = true).
  { intros H. repeat (apply orb_prop in H; destruct H as [H|H]);
      [exists Untouched | exists Written | exists Deleted | exists Emptied]; exact H. }
  assert (Hor : forall a b c d, a && b || c && d = true -> a = true /\ b = true \/ c = true /\ d = true).
  { intros a b c d H. apply orb_prop in H. destruct H as [H|H]; apply andb_prop in H; auto. }
  destruct r; simpl; intros H.
  - apply andb_prop in H. exists Untouched, Untouched. tauto.
  - destruct (Hor _ _ _ _ H) as [[H1 H2]|[H1 H2]]; [exists Written, Untouched; auto|].
    destruct (Hne H1) as [a Ha]. exists a, Written. auto.
  - destruct (Hor _ _ _ _ H) as [[H1 H2]|[H1 H2]]; [exists Deleted, Untouched; auto|].
    destruct (Hne H1) as [a Ha]. exists a, Deleted. auto.
  - destruct (Hor _ _ _ _ H) as [[H1 H2]|[H1 H2]]; [exists Emptied, Untouched; auto|].
    destruct (Hne H1) as [a Ha]. exists a, Emptied. auto.
Qed.

Lemma e_union_l a x y : e_in a x = true -> e_in a (e_union x y) = true.
Proof. destruct a; simpl; intros ->; auto. Qed.
Lemma e_union_r a x y : e_in a y = true -> e_in a (e_union x y) = true.
Proof. destruct a; simpl; intros ->; apply orb_true_r. Qed.

Section LeakSound.
  Variable V : Type.
  Variable fw : nat -> key -> list V -> V.
  Variable fb : list V -> nat -> bool.
  Variable present : nat -> V -> bool.
  Variable N : nat.
  Variable k : key.
  Variable des : nat -> bool.
  Variable emp : nat -> bool.

  Notation exec := (exec V fw fb present N).
  Notation peff := (peff V fw fb present N emp k).

  Definition eff_ok (p : prog) (s : st V) : Prop :=
    match exec p s with
    | Normal _ => e_in (peff p s) (fst (eff k des emp p)) = true
    | Aborted f _ => des f = true -> e_in (peff p s) (snd (eff k des emp p)) = true
    end.

  Lemma star_closed na x y :
    e_in x (e_union (e_one Untouched) na) = true -> e_in y (e_union (e_one Untouched) na) = true ->
    e_in (then1 x y) (e_union (e_one Untouched) na) = true.
  Proof. destruct y; simpl; auto. Qed.

  (* a loop whose body leaves effects in na (returning) or aa (raising) leaves effects in na* resp. na* ; aa *)
  Lemma iter_eff_sound (body : st V -> result V) (beff : st V -> effect) na aa :
    (forall s, match body s with
               | Normal _ => e_in (beff s) na = true
               | Aborted f _ => des f = true -> e_in (beff s) aa = true
               end) ->
    forall n s, match iter_loop V fb body n s with
                | Normal _ => e_in (iter_eff V fb body beff n s) (e_union (e_one Untouched) na) = true
                | Aborted f _ => des f = true ->
                    e_in (iter_eff V fb body beff n s) (e_then (e_union (e_one Untouched) na) aa) = true
                end.
  Proof.
    intros Hb. induction n as [|n IHn]; intros s; simpl; [reflexivity|].
    destruct (fb (log s) (ctr s)); [|reflexivity].
    specialize (Hb (mk (sigma s) (log s) (S (ctr s)))).
    destruct (body _) as [s'|f s'].
    - specialize (IHn s'). destruct (iter_loop V fb body n s').
      + apply star_closed; auto. now apply e_union_r.
      + intros Hd. destruct (e_then_inv _ _ _ (IHn Hd)) as (a & b & Ha & Hb' & ->).
        rewrite then1_assoc. apply e_then_in; auto. apply star_closed; auto. now apply e_union_r.
    - intros Hd. rewrite <- (then1_untouched_l (beff _)). apply e_then_in; auto.
  Qed.

  Lemma eff_sound : forall p s, eff_ok p s.
  Proof.
    unfold eff_ok. induction p; intros s; simpl.
    - reflexivity.
    - reflexivity.
    - destruct (String.eqb k0 k); [destruct (emp f)|]; reflexivity.
    - destruct (String.eqb k0 k); reflexivity.
    - destruct (String.eqb dst k); reflexivity.
    - intros ->. reflexivity.
    - (* Seq *)
      specialize (IHp1 s). destruct (eff k des emp p1) as [na aa], (eff k des emp p2) as [nb ab].
      destruct (exec p1 s) as [s'|f s']; simpl in *.
      + specialize (IHp2 s'). destruct (exec p2 s'); simpl in *.
        * now apply e_then_in.
        * intros Hd. apply e_union_r, e_then_in; auto.
      + intros Hd. apply e_union_l; auto.
    - (* Choice *)
      destruct (eff k des emp p1) as [na aa], (eff k des emp p2) as [nb ab].
      destruct (fb (log s) (ctr s)).
      + specialize (IHp1 (mk (sigma s) (log s) (S (ctr s)))).
        destruct (exec p1 _); simpl in *; [|intros Hd]; apply e_union_l; auto.
      + specialize (IHp2 (mk (sigma s) (log s) (S (ctr s)))).
        destruct (exec p2 _); simpl in *; [|intros Hd]; apply e_union_r; auto.
    - (* Loop *)
      destruct (eff k des emp p) as [na aa]. apply iter_eff_sound, IHp.
    - (* IfComp *)
      destruct (eff k des emp p) as [na aa]. simpl.
      destruct (present c (sigma s CL)); [|reflexivity].
      specialize (IHp s). destruct (exec p s); simpl in *; auto. now apply e_union_r.
  Qed.

  (* so a key that the analysis never finds written at the exits is not left written by any execution *)
  Corollary never_written p s :
    eW (fst (eff k des emp p)) = false -> eW (snd (eff k des emp p)) = false ->
    match exec p s with
    | Normal _ => peff p s <> Written
    | Aborted f _ => des f = true -> peff p s <> Written
    end.
  Proof.
    intros Hn Ha. generalize (eff_sound p s). unfold eff_ok. destruct (exec p s).
    - intros G E. rewrite E in G. simpl in G. congruence.
    - intros G Hd E. specialize (G Hd). rewrite E in G. simpl in G. congruence.
  Qed.
End LeakSound.
