(* C12 - a def-use scan that returns only what a program ADDS to the set of defined keys.

   The model's [scan] hands the whole set on and intersects two whole sets at every branch, although the
   two arms of a branch nearly always leave it as it was; evaluating that on the generated programs (thousands
   of nodes each) is what every re-check of C12/Checks.v pays for, with the kernel's reducer.  [fscan] walks a
   program exactly as [scan] does but answers [FOk delta] where [scan] answers [Ok d'] with d' = d + delta as
   sets, so that a branch intersects two deltas.  [fscan_scan]: from sets with the same members the two give
   the same verdict (the same rejected read, or results with the same members). *)
From Coq Require Import String List Bool Arith.
From PP Require Import C12.Model C12.Proofs.
Import ListNotations.
Open Scope string_scope.

Inductive fverdict :=
| FReject (f : nat) (k : key)
| FTop
| FOk (delta : dset).

Definition union (d delta : dset) : dset := (app (fst delta) (fst d), app (snd delta) (snd d)).

Section FScan.
  Variable E : list key.

  Fixpoint fscan (cur : option nat) (p : prog) (d : dset) : fverdict :=
    match p with
    | Skip => FOk ([], [])
    | Rd f k => if defd E cur d k then FOk ([], []) else FReject f k
    (* the key is added whether or not it is there: the sets are only read through [mem], and a test at every
       write costs more than the shorter lists save *)
    | Wr f k | Del f k => if String.eqb k CL then FReject f k else FOk ([k], [])
    | Cp f dst src =>
        if String.eqb dst CL then FReject f dst
        else if defd E cur d src then FOk ([dst], [])
        else if is_user dst || mem dst E || mem dst (fst d) || memk dst (snd d) then FReject f dst
        else FOk ([], [])
    | Abort _ => FTop
    | Seq a b =>
        match fscan cur a d with
        | FOk da => match fscan cur b (union d da) with FOk db => FOk (union da db) | v => v end
        | v => v
        end
    | Choice a b =>
        match fscan cur a d, fscan cur b d with
        | FReject f k, _ => FReject f k
        | _, FReject f k => FReject f k
        | FTop, v => v
        | v, FTop => v
        | FOk x, FOk y => FOk (inter (fst x) (fst y), interp (snd x) (snd y))
        end
    | Loop a => match fscan cur a d with FReject f k => FReject f k | _ => FOk ([], []) end
    | IfComp c a =>
        match fscan (Some c) a d with
        | FReject f k => FReject f k
        | FTop => FOk ([], [])
        (* as in [scan]: what the body recorded for classes is dropped, its new keys are recorded for c *)
        | FOk d' => FOk ([], addp c (filter (fun k => negb (mem k (fst d))) (fst d')) [])
        end
    end.
End FScan.

(* the model's list-sets, through their membership tests *)
Lemma mem_app k a b : mem k (a ++ b)%list = mem k a || mem k b.
Proof. apply eq_iff_eq_true. rewrite orb_true_iff, !mem_In. apply in_app_iff. Qed.

Lemma memp_app c k a b : memp c k (a ++ b)%list = memp c k a || memp c k b.
Proof. apply eq_iff_eq_true. rewrite orb_true_iff, !memp_In. apply in_app_iff. Qed.

Lemma mem_add x k l : mem x (add k l) = String.eqb x k || mem x l.
Proof. apply eq_iff_eq_true. rewrite orb_true_iff, !mem_In, String.eqb_eq. apply add_In. Qed.

Lemma mem_inter k a b : mem k (inter a b) = mem k a && mem k b.
Proof. apply eq_iff_eq_true. rewrite andb_true_iff, !mem_In. apply inter_In. Qed.

Lemma memp_interp c k a b : memp c k (interp a b) = memp c k a && memp c k b.
Proof. apply eq_iff_eq_true. rewrite andb_true_iff, !memp_In. apply interp_In. Qed.

Lemma mem_filter k f l : mem k (filter f l) = mem k l && f k.
Proof. apply eq_iff_eq_true. rewrite andb_true_iff, !mem_In. apply filter_In. Qed.

Lemma memp_addp c' k c ks dp : memp c' k (addp c ks dp) = Nat.eqb c' c && mem k ks || memp c' k dp.
Proof.
  apply eq_iff_eq_true. rewrite orb_true_iff, andb_true_iff, !memp_In, mem_In, Nat.eqb_eq. apply addp_In.
Qed.

(* sets with the same members *)
Definition eqv (d1 d2 : dset) : Prop :=
  (forall k, mem k (fst d1) = mem k (fst d2)) /\ (forall c k, memp c k (snd d1) = memp c k (snd d2)).

Lemma eqv_refl d : eqv d d.
Proof. split; reflexivity. Qed.

Lemma memk_eqv d1 d2 k : eqv d1 d2 -> memk k (snd d1) = memk k (snd d2).
Proof.
  intros [_ H]. apply eq_iff_eq_true. rewrite !memk_In.
  split; intros [c Hc]; exists c; apply memp_In; apply memp_In in Hc; congruence.
Qed.

Lemma union_assoc d a b : union (union d a) b = union d (union a b).
Proof. unfold union. simpl. now rewrite !app_assoc. Qed.

(* the verdict of [scan] and, started from d0, that of [fscan]: the same up to the members of the sets *)
Definition same_verdict (v : verdict) (d0 : dset) (w : fverdict) : Prop :=
  match v, w with
  | Reject f k, FReject f' k' => f = f' /\ k = k'
  | Top, FTop => True
  | Ok d1, FOk delta => eqv d1 (union d0 delta)
  | _, _ => False
  end.

Section Correct.
  Variable E : list key.

  Lemma defd_eqv cur d d0 k : eqv d d0 -> defd E cur d k = defd E cur d0 k.
  Proof. intros [H1 H2]. unfold defd. rewrite H1. destruct cur; now rewrite ?H2. Qed.

  Lemma wrote_eqv d d0 k : eqv d d0 -> eqv (add k (fst d), snd d) (union d0 ([k], [])).
  Proof.
    intros [H1 H2]. split; simpl; auto. intros x. now rewrite mem_add, H1.
  Qed.

  Theorem fscan_scan : forall p cur d d0, eqv d d0 -> same_verdict (scan E cur p d) d0 (fscan E cur p d0).
  Proof.
    induction p; intros cur d d0 H; cbn [scan fscan].
    - (* Skip *) exact H.
    - (* Rd *) rewrite (defd_eqv _ _ _ _ H). destruct (defd E cur d0 k); simpl; auto.
    - (* Wr *) destruct (String.eqb k CL); simpl; auto. now apply wrote_eqv.
    - (* Del *) destruct (String.eqb k CL); simpl; auto. now apply wrote_eqv.
    - (* Cp *) rewrite (defd_eqv _ _ _ _ H), (proj1 H), (memk_eqv _ _ _ H).
      destruct (String.eqb dst CL); simpl; auto.
      destruct (defd E cur d0 src); simpl; [now apply wrote_eqv|].
      destruct (is_user dst || mem dst E || mem dst (fst d0) || memk dst (snd d0)); simpl; auto.
    - (* Abort *) exact I.
    - (* Seq: the second part starts from sets with the same members *)
      specialize (IHp1 cur d d0 H).
      destruct (scan E cur p1 d) as [| |d1], (fscan E cur p1 d0) as [| |da]; simpl in IHp1;
        try contradiction; auto.
      specialize (IHp2 cur d1 (union d0 da) IHp1).
      destruct (scan E cur p2 d1), (fscan E cur p2 (union d0 da)); simpl in *; try contradiction; auto.
      now rewrite <- union_assoc.
    - (* Choice: (d + a) n (d + b) = d + (a n b) *)
      specialize (IHp1 cur d d0 H). specialize (IHp2 cur d d0 H).
      destruct (scan E cur p1 d) as [| |x], (fscan E cur p1 d0) as [| |a]; simpl in IHp1; try contradiction;
        destruct (scan E cur p2 d) as [| |y], (fscan E cur p2 d0) as [| |b]; simpl in *; try contradiction; auto.
      destruct IHp1 as [X1 X2], IHp2 as [Y1 Y2]. split; simpl.
      + intros k. rewrite mem_inter, X1, Y1. simpl. rewrite !mem_app, mem_inter.
        now destruct (mem k (fst a)), (mem k (fst b)), (mem k (fst d0)).
      + intros c k. rewrite memp_interp, X2, Y2. simpl. rewrite !memp_app, memp_interp.
        now destruct (memp c k (snd a)), (memp c k (snd b)), (memp c k (snd d0)).
    - (* Loop *)
      specialize (IHp cur d d0 H).
      destruct (scan E cur p d), (fscan E cur p d0); simpl in *; try contradiction; auto.
    - (* IfComp: the keys the body adds are those of its delta that were not there before *)
      specialize (IHp (Some c) d d0 H).
      destruct (scan E (Some c) p d) as [| |d'], (fscan E (Some c) p d0) as [| |a]; simpl in *;
        try contradiction; auto.
      destruct H as [H1 H2], IHp as [B1 _]. split; simpl; auto.
      intros c' k. rewrite memp_addp, mem_filter, B1, H1, H2. simpl.
      rewrite mem_app, memp_app, memp_addp, mem_filter. simpl.
      now destruct (mem k (fst a)), (mem k (fst d0)), (Nat.eqb c' c).
  Qed.
End Correct.

(* a whole program, scanned from the empty set *)
Corollary fscan_start E p :
  match fscan E None p ([], []) with
  | FReject f k => scan E None p ([], []) = Reject f k
  | FTop => scan E None p ([], []) = Top
  | FOk delta => exists d, scan E None p ([], []) = Ok d /\ eqv d delta
  end.
Proof.
  generalize (fscan_scan E p None ([], []) ([], []) (eqv_refl _)).
  destruct (scan E None p ([], [])) as [f k| |d], (fscan E None p ([], [])) as [f' k'| |delta]; simpl;
    try contradiction.
  - intros [-> ->]. reflexivity.
  - reflexivity.
  - intros [H1 H2]. exists d. split; [reflexivity|]. split.
    + intros k. rewrite H1. simpl. now rewrite app_nil_r.
    + intros c k. rewrite H2. simpl. now rewrite app_nil_r.
Qed.
