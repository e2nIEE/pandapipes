(* C17 - proofs about the model of the restructuring tools (any tables, any rows, any sequences).

   Every operation of the model is built from two table transformers: [filter_rows] and a [map_rows] that
   keeps the cells of a row and overwrites the value of the selected ones ([patch] below: [relabel] and
   [redirect] are instances).  What the theorems need of an operation is read off membership lemmas for
   these two, so that no proof looks inside a table. *)
From Coq Require Import String List Bool ZArith Lia.
From PP Require Import C17.Model.
Import ListNotations.
Open Scope string_scope.

Lemma memz_In x l : memz x l = true <-> In x l.
Proof.
  unfold memz. rewrite existsb_exists. split.
  - intros [y [H E]]. apply Z.eqb_eq in E. now subst.
  - intros H. exists x. split; auto. apply Z.eqb_refl.
Qed.

Lemma memz_false x l : memz x l = false <-> ~ In x l.
Proof. rewrite <- memz_In. symmetry. apply not_true_iff_false. Qed.

Lemma existsb_ext_in {A} (f g : A -> bool) l : (forall x, In x l -> f x = g x) -> existsb f l = existsb g l.
Proof. induction l as [|x l IH]; simpl; auto. intros H. rewrite (H x) by auto. rewrite IH; auto. Qed.

Lemma forallb_ext_in {A} (f g : A -> bool) l : (forall x, In x l -> f x = g x) -> forallb f l = forallb g l.
Proof. induction l as [|x l IH]; simpl; auto. intros H. rewrite (H x) by auto. rewrite IH; auto. Qed.

(* the boolean reading of "every selected cell has its value in ls" *)
Lemma guarded_all (p : cell -> bool) ls cells :
  forallb (fun c => negb (p c) || memz (c_val c) ls) cells = true <->
  forall c, In c cells -> p c = true -> In (c_val c) ls.
Proof.
  rewrite forallb_forall. split; intros H c Hc.
  - intros Hp. specialize (H c Hc). rewrite Hp in H. now apply memz_In.
  - destruct (p c) eqn:Hp; [|reflexivity]. apply memz_In. auto.
Qed.

Lemma fold_left_inv {A B} (P : A -> Prop) (f : A -> B -> A) l :
  (forall b a, In b l -> P a -> P (f a b)) -> forall a, P a -> P (fold_left f l a).
Proof.
  induction l as [|b l IH]; intros Hf a Ha; simpl; auto.
  apply IH; [intros; apply Hf; simpl; auto | apply Hf; simpl; auto].
Qed.

Lemma NoDup_map_inj {A B} (f : A -> B) l : (forall x y, In x l -> In y l -> f x = f y -> x = y) -> NoDup l -> NoDup (map f l).
Proof.
  induction l as [|a l IH]; intros Hinj Hnd; simpl; constructor.
  - inversion Hnd; subst. intros Hin. apply in_map_iff in Hin. destruct Hin as [y [E Hy]].
    assert (y = a) by (apply Hinj; simpl; auto). subst. contradiction.
  - inversion Hnd; subst. apply IH; auto. intros. apply Hinj; simpl; auto.
Qed.

Lemma kj_iff k0 : kind_is_kj k0 = true <-> k0 = KJ. Proof. destruct k0; simpl; split; congruence. Qed.
Lemma kp_iff k0 : kind_is_kp k0 = true <-> k0 = KP. Proof. destruct k0; simpl; split; congruence. Qed.

Lemma rows_of_filter_rows k tn n : rows_of tn (filter_rows k n) = filter (k tn) (rows_of tn n).
Proof.
  induction n as [|t n IH]; simpl; auto.
  rewrite filter_app, <- IH. f_equal.
  destruct (String.eqb (t_name t) tn) eqn:E; simpl; auto.
  apply String.eqb_eq in E. now subst.
Qed.

Lemma rows_of_map_rows f tn n : rows_of tn (map_rows f n) = map (f tn) (rows_of tn n).
Proof.
  induction n as [|t n IH]; simpl; auto.
  rewrite map_app, <- IH. f_equal.
  destruct (String.eqb (t_name t) tn) eqn:E; simpl; auto.
  apply String.eqb_eq in E. now subst.
Qed.

Lemma labels_of_rows_of e n : labels_of e n = map r_label (rows_of e n).
Proof.
  induction n as [|t n IH]; simpl; auto.
  rewrite map_app, <- IH. f_equal. now destruct (String.eqb (t_name t) e).
Qed.

Lemma In_rows_of tn r n : In r (rows_of tn n) <-> exists t, In t n /\ t_name t = tn /\ In r (t_rows t).
Proof.
  unfold rows_of. rewrite in_flat_map. split.
  - intros [t [Ht Hr]]. destruct (String.eqb (t_name t) tn) eqn:E; [|contradiction].
    apply String.eqb_eq in E. eauto.
  - intros [t [Ht [En Hr]]]. exists t. split; auto. subst. now rewrite String.eqb_refl.
Qed.

Lemma In_rows_filter k tn r n : In r (rows_of tn (filter_rows k n)) <-> In r (rows_of tn n) /\ k tn r = true.
Proof. rewrite rows_of_filter_rows. apply filter_In. Qed.

Lemma In_labels_of l e n : In l (labels_of e n) <-> exists r, In r (rows_of e n) /\ r_label r = l.
Proof. rewrite labels_of_rows_of, in_map_iff. split; intros [r [A B]]; exists r; auto. Qed.

(* the labels the model collects from the rows of e that satisfy k are the labels left in e by the filter k *)
Lemma labels_of_filter_rows (k : string -> row -> bool) e n :
  flat_map (fun t => if String.eqb (t_name t) e then map r_label (filter (k (t_name t)) (t_rows t)) else []) n =
  labels_of e (filter_rows k n).
Proof. induction n as [|t n IH]; simpl; [|rewrite IH]; reflexivity. Qed.

Lemma hit_labels_filter sel js n e : hit_labels sel js n e = labels_of e (filter_rows (hit sel js) n).
Proof. apply labels_of_filter_rows. Qed.

Lemma kept_labels_filter sel js n e : kept_labels sel js n e = labels_of e (filter_rows (keep_row sel js) n).
Proof. apply labels_of_filter_rows. Qed.

Lemma fam_refl e : fam e e = true.
Proof. unfold fam. now rewrite String.eqb_refl. Qed.

(* a statement about every cell of the net that looks at (table, column, kind) only *)
Definition allcells (Q : string -> string -> kind -> Prop) (n : net) : Prop :=
  forall tn r c, In r (rows_of tn n) -> In c (r_cells r) -> Q tn (c_col c) (c_kind c).

Lemma allcells_filter_rows Q k n : allcells Q n -> allcells Q (filter_rows k n).
Proof. intros H tn r c Hr Hc. apply In_rows_filter in Hr. apply (H tn r c); tauto. Qed.

(* new labels, and new values for the cells p selects; the cells keep column and kind *)
Definition patch (lab : string -> row -> Z) (p : string -> cell -> bool) (v : cell -> Z) : net -> net :=
  map_rows (fun tn r => mkRow (lab tn r) (map (fun c => if p tn c then set_val c (v c) else c) (r_cells r))).

Lemma relabel_patch e rho sel :
  relabel e rho sel = patch (fun tn r => if fam e tn then rho (r_label r) else r_label r) sel (fun c => rho (c_val c)).
Proof. reflexivity. Qed.

Lemma redirect_patch sel j1 js :
  redirect sel j1 js = patch (fun _ r => r_label r) (fun tn c => sel tn c && memz (c_val c) js) (fun _ => j1).
Proof. reflexivity. Qed.

Lemma patch_cell lab p v n tn r' c' : In r' (rows_of tn (patch lab p v n)) -> In c' (r_cells r') ->
  exists r c, In r (rows_of tn n) /\ In c (r_cells r) /\ c_col c' = c_col c /\ c_kind c' = c_kind c /\
              c_val c' = if p tn c then v c else c_val c.
Proof.
  unfold patch. rewrite rows_of_map_rows. intros Hr Hc. apply in_map_iff in Hr. destruct Hr as [r [<- Hr]].
  simpl in Hc. apply in_map_iff in Hc. destruct Hc as [c [<- Hc]].
  exists r, c. now destruct (p tn c).
Qed.

Lemma labels_of_patch x lab p v n : labels_of x (patch lab p v n) = map (lab x) (rows_of x n).
Proof. unfold patch. now rewrite labels_of_rows_of, rows_of_map_rows, map_map. Qed.

Lemma labels_of_relabel x e rho sel n :
  labels_of x (relabel e rho sel n) = if fam e x then map rho (labels_of x n) else labels_of x n.
Proof.
  rewrite relabel_patch, labels_of_patch, labels_of_rows_of. destruct (fam e x); [now rewrite map_map | reflexivity].
Qed.

Lemma labels_of_redirect x sel j1 js n : labels_of x (redirect sel j1 js n) = labels_of x n.
Proof. rewrite redirect_patch, labels_of_patch. symmetry. apply labels_of_rows_of. Qed.

Lemma allcells_patch Q lab p v n : allcells Q n -> allcells Q (patch lab p v n).
Proof.
  intros H tn r' c' Hr Hc. destruct (patch_cell _ _ _ _ _ _ _ Hr Hc) as (r & c & Hr0 & Hc0 & -> & -> & _).
  exact (H tn r c Hr0 Hc0).
Qed.

Lemma allcells_relabel Q e rho sel n : allcells Q n -> allcells Q (relabel e rho sel n).
Proof. rewrite relabel_patch. apply allcells_patch. Qed.

Lemma allcells_redirect Q sel j1 js n : allcells Q n -> allcells Q (redirect sel j1 js n).
Proof. rewrite redirect_patch. apply allcells_patch. Qed.

Lemma cont_all_fold s cs order start n :
  cont_all s cs order start n = fold_left (fun m e => cont_elem s cs e start m) order n.
Proof. revert n. induction order; simpl; auto. Qed.

Lemma allcells_cont_all Q s cs order start n : allcells Q n -> allcells Q (cont_all s cs order start n).
Proof. rewrite cont_all_fold. apply fold_left_inv. intros e m _. apply allcells_relabel. Qed.

(* every operation is a composition of row filters, relabellings and redirections *)
Lemma allcells_step Q s o n : allcells Q n -> allcells Q (step s o n).
Proof.
  intros H. destruct o; simpl; try destruct cascade;
    unfold reindex_elem, cont_elem, drop_elems_full, drop_pipe_refs, drop_elems, drop_labels, select, select_res;
    auto using allcells_filter_rows, allcells_relabel, allcells_redirect, allcells_cont_all.
Qed.

Lemma allcells_exec Q s ops n : allcells Q n -> allcells Q (exec s ops n).
Proof. apply fold_left_inv. intros o m _. apply allcells_step. Qed.

(* model = specification when the selectors agree on the cells of the net *)
Definition agree (f g : selector) (n : net) : Prop := allcells (fun tn col k => f tn col k = g tn col k) n.

(* the operations take cell tests [string -> cell -> bool] ([on_cell f], [sel_for s cs e]); for those, agreement is
   stated table by table, the form in which [map_rows_ext_in] and [filter_rows_ext_in] ask for it *)
Definition agree_in (sel1 sel2 : string -> cell -> bool) (n : net) : Prop :=
  forall t r c, In t n -> In r (t_rows t) -> In c (r_cells r) -> sel1 (t_name t) c = sel2 (t_name t) c.

Lemma agree_agree_in f g n : agree f g n -> agree_in (on_cell f) (on_cell g) n.
Proof.
  intros H t r c Ht Hr Hc. unfold on_cell. apply (H (t_name t) r c); auto.
  apply In_rows_of. eauto.
Qed.

Lemma map_rows_ext_in f g n :
  (forall t r, In t n -> In r (t_rows t) -> f (t_name t) r = g (t_name t) r) -> map_rows f n = map_rows g n.
Proof.
  intros H. unfold map_rows. apply map_ext_in. intros t Ht. f_equal. apply map_ext_in. intros r Hr. now apply H.
Qed.

Lemma filter_rows_ext_in f g n :
  (forall t r, In t n -> In r (t_rows t) -> f (t_name t) r = g (t_name t) r) -> filter_rows f n = filter_rows g n.
Proof.
  intros H. unfold filter_rows. apply map_ext_in. intros t Ht. f_equal. apply filter_ext_in. intros r Hr. now apply H.
Qed.

Lemma agree_in_filter_rows sel1 sel2 k n : agree_in sel1 sel2 n -> agree_in sel1 sel2 (filter_rows k n).
Proof.
  intros H t' r c Ht Hr Hc. unfold filter_rows in Ht. apply in_map_iff in Ht. destruct Ht as [t [<- Ht]].
  simpl in *. apply filter_In in Hr. apply (H t r c); tauto.
Qed.

Lemma patch_agree lab p1 p2 v n : agree_in p1 p2 n -> patch lab p1 v n = patch lab p2 v n.
Proof.
  intros H. apply map_rows_ext_in. intros t r Ht Hr. f_equal. apply map_ext_in. intros c Hc.
  now rewrite (H t r c).
Qed.

Lemma relabel_agree e rho sel1 sel2 n : agree_in sel1 sel2 n -> relabel e rho sel1 n = relabel e rho sel2 n.
Proof. rewrite !relabel_patch. apply patch_agree. Qed.

Lemma redirect_agree sel1 sel2 j1 js n : agree_in sel1 sel2 n -> redirect sel1 j1 js n = redirect sel2 j1 js n.
Proof.
  intros H. rewrite !redirect_patch. apply patch_agree. intros t r c Ht Hr Hc. now rewrite (H t r c).
Qed.

Lemma hit_agree sel1 sel2 js n t r : agree_in sel1 sel2 n -> In t n -> In r (t_rows t) ->
  hit sel1 js (t_name t) r = hit sel2 js (t_name t) r.
Proof. intros H Ht Hr. apply existsb_ext_in. intros c Hc. now rewrite (H t r c). Qed.

Lemma keep_row_agree sel1 sel2 js n t r : agree_in sel1 sel2 n -> In t n -> In r (t_rows t) ->
  keep_row sel1 js (t_name t) r = keep_row sel2 js (t_name t) r.
Proof.
  intros H Ht Hr. unfold keep_row. f_equal.
  - apply existsb_ext_in. intros c Hc. now apply (H t r c).
  - apply forallb_ext_in. intros c Hc. now rewrite (H t r c).
Qed.

Lemma hit_labels_agree sel1 sel2 js n e : agree_in sel1 sel2 n -> hit_labels sel1 js n e = hit_labels sel2 js n e.
Proof.
  intros H. rewrite !hit_labels_filter. f_equal. apply filter_rows_ext_in. intros t r. now apply hit_agree.
Qed.

Lemma kept_labels_agree sel1 sel2 js n e : agree_in sel1 sel2 n -> kept_labels sel1 js n e = kept_labels sel2 js n e.
Proof.
  intros H. rewrite !kept_labels_filter. f_equal. apply filter_rows_ext_in. intros t r. now apply keep_row_agree.
Qed.

Lemma drop_elems_agree sel1 sel2 js n : agree_in sel1 sel2 n -> drop_elems sel1 js n = drop_elems sel2 js n.
Proof.
  intros H. apply filter_rows_ext_in. intros t r Ht Hr.
  rewrite (hit_agree _ _ _ n t r H Ht Hr). f_equal.
  destruct (parent (t_name t)); auto. now rewrite (hit_labels_agree _ _ _ _ _ H).
Qed.

Lemma drop_elems_full_agree sel1 sel2 selp1 selp2 js n : agree_in sel1 sel2 n -> agree_in selp1 selp2 n ->
  drop_elems_full sel1 selp1 js n = drop_elems_full sel2 selp2 js n.
Proof.
  intros H HP. unfold drop_elems_full, drop_pipe_refs.
  rewrite (hit_labels_agree _ _ js n "pipe" H), (drop_elems_agree _ _ js n H).
  apply drop_elems_agree. unfold drop_elems. now apply agree_in_filter_rows.
Qed.

(* the row test of select_subnet is [sel_pred] *)
Lemma select_sel_pred sel selp js n : select sel selp js n = filter_rows (sel_pred sel selp js n) n.
Proof. reflexivity. Qed.

Lemma sel_pred_agree sel1 sel2 selp1 selp2 js n t r : agree_in sel1 sel2 n -> agree_in selp1 selp2 n ->
  In t n -> In r (t_rows t) -> sel_pred sel1 selp1 js n (t_name t) r = sel_pred sel2 selp2 js n (t_name t) r.
Proof.
  intros H HP Ht Hr. unfold sel_pred.
  rewrite (kept_labels_agree _ _ js n "pipe" H), (keep_row_agree _ _ js n t r H Ht Hr).
  rewrite (forallb_ext_in _ (fun c => negb (selp2 (t_name t) c) || memz (c_val c) (kept_labels sel2 js n "pipe"))); auto.
  intros c Hc. now rewrite (HP t r c).
Qed.

Lemma select_agree sel1 sel2 selp1 selp2 js n : agree_in sel1 sel2 n -> agree_in selp1 selp2 n ->
  select sel1 selp1 js n = select sel2 selp2 js n.
Proof.
  intros H HP. rewrite !select_sel_pred. apply filter_rows_ext_in. intros t r. now apply sel_pred_agree.
Qed.

Lemma select_res_agree sel1 sel2 selp1 selp2 js n : agree_in sel1 sel2 n -> agree_in selp1 selp2 n ->
  select_res sel1 selp1 js n = select_res sel2 selp2 js n.
Proof.
  intros H HP. apply filter_rows_ext_in. intros t r Ht Hr.
  rewrite (sel_pred_agree _ _ _ _ js n t r H HP Ht Hr).
  assert (E : forall e, filter (sel_pred sel1 selp1 js n e) (rows_of e n) = filter (sel_pred sel2 selp2 js n e) (rows_of e n)).
  { intros e. apply filter_ext_in. intros r0 Hr0. apply In_rows_of in Hr0. destruct Hr0 as [t0 [Ht0 [<- Hr0]]].
    now apply sel_pred_agree. }
  destruct (parent (t_name t)) as [e|]; [rewrite E|]; reflexivity.
Qed.

Definition sems_agree (s1 s2 : sem) (cs : colset) (n : net) : Prop :=
  agree (selJ s1 cs) (selJ s2 cs) n /\ agree (selP s1) (selP s2) n.

Lemma sel_for_cases s cs e :
  (e = "junction" /\ sel_for s cs e = on_cell (selJ s cs)) \/
  (e = "pipe" /\ sel_for s cs e = on_cell (selP s)) \/
  (e <> "junction" /\ e <> "pipe" /\ sel_for s cs e = fun _ _ => false).
Proof.
  unfold sel_for. destruct (String.eqb_spec e "junction") as [->|N1]; [now left|].
  destruct (String.eqb_spec e "pipe") as [->|N2]; [now right; left | now right; right].
Qed.

Lemma sel_for_agree s1 s2 cs e n : sems_agree s1 s2 cs n -> agree_in (sel_for s1 cs e) (sel_for s2 cs e) n.
Proof.
  intros [HJ HP]. unfold sel_for. destruct (String.eqb e "junction"); [now apply agree_agree_in|].
  destruct (String.eqb e "pipe"); [now apply agree_agree_in|]. intros t r c _ _ _. reflexivity.
Qed.

Lemma cont_all_agree s1 s2 cs order start n : sems_agree s1 s2 cs n ->
  cont_all s1 cs order start n = cont_all s2 cs order start n.
Proof.
  revert n. induction order as [|e r IH]; intros n H; simpl; auto.
  assert (E : cont_elem s1 cs e start n = cont_elem s2 cs e start n).
  { unfold cont_elem. apply relabel_agree. now apply sel_for_agree. }
  rewrite E. apply IH. destruct H as [HJ HP]. split; unfold agree, cont_elem; now apply allcells_relabel.
Qed.

Lemma step_agree s1 s2 o n : sems_agree s1 s2 (cs_of o) n -> step s1 o n = step s2 o n.
Proof.
  intros H. pose proof H as [HJ HP]. destruct o; simpl in *.
  - apply relabel_agree. now apply sel_for_agree.
  - apply relabel_agree. now apply sel_for_agree.
  - now apply cont_all_agree.
  - f_equal. apply redirect_agree. now apply agree_agree_in.
  - apply select_agree; now apply agree_agree_in.
  - destruct cascade; [|reflexivity].
    apply drop_elems_full_agree; apply agree_in_filter_rows; now apply agree_agree_in.
  - apply drop_elems_full_agree; now apply agree_agree_in.
  - f_equal. unfold drop_pipe_refs. apply drop_elems_agree. now apply agree_agree_in.
  - apply redirect_agree. now apply agree_agree_in.
  - apply select_res_agree; now apply agree_agree_in.
Qed.

(* the hypotheses under which today's code meets the specification: the tuple set is exactly the set
   of junction-reference columns of the net, and pipe references live in valve.element *)
Definition exact (cs : colset) (n : net) : Prop :=
  allcells (fun tn col k => selJ model_sem cs tn col k = kind_is_kj k) n.
Definition pexact (n : net) : Prop :=
  allcells (fun tn col k => kind_is_kp k = true -> tn = "valve" /\ col = "element") n.

(* [exact cs n] is, by definition, [agree (selJ model_sem cs) (selJ spec_sem cs) n]; this is the pipe side *)
Lemma pexact_agree n : pexact n -> agree (selP model_sem) (selP spec_sem) n.
Proof.
  intros H tn r c Hr Hc. specialize (H tn r c Hr Hc). simpl in *. destruct (kind_is_kp (c_kind c)).
  - destruct (H eq_refl) as [-> ->]. reflexivity.
  - apply andb_false_r.
Qed.

Lemma step_model_eq_spec o n : exact (cs_of o) n -> pexact n -> step model_sem o n = step spec_sem o n.
Proof. intros HE HP. apply step_agree. split; [exact HE | now apply pexact_agree]. Qed.

Definition rename (e : string) (rho : Z -> Z) (k : kind -> bool) : net -> net :=
  relabel e rho (fun _ c => k (c_kind c)).

Lemma relabel_relabel_id e rho rho' sel n :
  (forall x, rho' (rho x) = x) ->
  (forall tn c v, sel tn (set_val c v) = sel tn c) ->
  relabel e rho' sel (relabel e rho sel n) = n.
Proof.
  intros Hinv Hsel. unfold relabel, map_rows. rewrite map_map.
  rewrite <- (map_id n) at 2. apply map_ext. intros [tn rows]. simpl. f_equal.
  rewrite map_map. rewrite <- (map_id rows) at 2. apply map_ext. intros [l cells]. simpl. f_equal.
  - destruct (fam e tn); auto.
  - rewrite map_map. rewrite <- (map_id cells) at 2. apply map_ext. intros c.
    destruct (sel tn c) eqn:S.
    + rewrite Hsel, S. destruct c; unfold set_val; simpl. now rewrite Hinv.
    + now rewrite S.
Qed.

(* the cells of kind kd hold labels of table x *)
Definition refs_ok (kd : kind) (x : string) (n : net) : Prop :=
  forall tn r c, In r (rows_of tn n) -> In c (r_cells r) -> c_kind c = kd -> In (c_val c) (labels_of x n).

(* [refs_ok KJ "junction"] and [refs_ok KP "pipe"] written out: the lemmas about [refs_ok] apply to them as they are *)
Definition RI_J (n : net) : Prop :=
  forall tn r c, In r (rows_of tn n) -> In c (r_cells r) -> c_kind c = KJ -> In (c_val c) (labels_of "junction" n).
Definition RI_P (n : net) : Prop :=
  forall tn r c, In r (rows_of tn n) -> In c (r_cells r) -> c_kind c = KP -> In (c_val c) (labels_of "pipe" n).
Definition RI (n : net) : Prop := RI_J n /\ RI_P n.

(* a relabelling keeps integrity when it translates either all cells of kind kd together with the
   labels of x, or neither *)
Lemma relabel_refs kd x e rho sel n :
  (forall tn r c, In r (rows_of tn n) -> In c (r_cells r) -> c_kind c = kd -> sel tn c = fam e x) ->
  refs_ok kd x n -> refs_ok kd x (relabel e rho sel n).
Proof.
  intros Hs H tn r' c' Hr Hc Hk. rewrite labels_of_relabel. rewrite relabel_patch in Hr.
  destruct (patch_cell _ _ _ _ _ _ _ Hr Hc) as (r & c & Hr0 & Hc0 & _ & Ek & ->). rewrite Ek in Hk.
  rewrite (Hs tn r c Hr0 Hc0 Hk). specialize (H tn r c Hr0 Hc0 Hk).
  destruct (fam e x); [now apply in_map | exact H].
Qed.

Lemma rename_refs kd x e rho k n : k kd = fam e x -> refs_ok kd x n -> refs_ok kd x (rename e rho k n).
Proof. intros E. apply relabel_refs. intros tn r c _ _ K. now rewrite K. Qed.

(* redirected references stay intact when the new target exists *)
Lemma redirect_refs kd x sel j1 js n :
  (forall tn r c, In r (rows_of tn n) -> In c (r_cells r) -> c_kind c = kd ->
     sel tn c && memz (c_val c) js = true -> In j1 (labels_of x n)) ->
  refs_ok kd x n -> refs_ok kd x (redirect sel j1 js n).
Proof.
  intros Hj H tn r' c' Hr Hc Hk. rewrite labels_of_redirect. rewrite redirect_patch in Hr.
  destruct (patch_cell _ _ _ _ _ _ _ Hr Hc) as (r & c & Hr0 & Hc0 & _ & Ek & ->). rewrite Ek in Hk.
  destruct (sel tn c && memz (c_val c) js) eqn:B; eauto.
Qed.

(* a net with fewer rows keeps integrity when it keeps the rows that are still referenced *)
Lemma sub_refs kd x n n' :
  (forall tn r, In r (rows_of tn n') -> In r (rows_of tn n)) ->
  (forall tn r c r0, In r (rows_of tn n') -> In c (r_cells r) -> c_kind c = kd ->
     In r0 (rows_of x n) -> r_label r0 = c_val c -> In r0 (rows_of x n')) ->
  refs_ok kd x n -> refs_ok kd x n'.
Proof.
  intros Hsub Hkeep H tn r c Hr Hc Hk. pose proof (H tn r c (Hsub tn r Hr) Hc Hk) as Hin.
  apply In_labels_of in Hin. destruct Hin as [r0 [Hr0 E]]. apply In_labels_of. exists r0. split; [|exact E].
  exact (Hkeep tn r c r0 Hr Hc Hk Hr0 E).
Qed.

Lemma filter_refs kd x k n :
  (forall tn r c r0, In r (rows_of tn n) -> k tn r = true -> In c (r_cells r) -> c_kind c = kd ->
      In r0 (rows_of x n) -> r_label r0 = c_val c -> k x r0 = true) ->
  refs_ok kd x n -> refs_ok kd x (filter_rows k n).
Proof.
  intros Hk. apply sub_refs.
  - intros tn r Hr. now apply In_rows_filter in Hr.
  - intros tn r c r0 Hr Hc Hkd Hr0 E. apply In_rows_filter in Hr. destruct Hr as [Hr Hkr].
    apply In_rows_filter. split; [exact Hr0|]. exact (Hk tn r c r0 Hr Hkr Hc Hkd Hr0 E).
Qed.

Local Open Scope Z_scope.
Lemma count_lt_cons x y l : count_lt x (y :: l) = (if Z.ltb y x then 1 else 0) + count_lt x l.
Proof. unfold count_lt. simpl. destruct (Z.ltb y x); simpl length; lia. Qed.

Lemma count_lt_mono a b l : a <= b -> count_lt a l <= count_lt b l.
Proof.
  intros H. induction l as [|x l IH]; [reflexivity|]. rewrite !count_lt_cons.
  destruct (Z.ltb_spec x a), (Z.ltb_spec x b); lia.
Qed.

Lemma count_lt_strict a b l : a < b -> In a l -> count_lt a l < count_lt b l.
Proof.
  intros H Hin. induction l as [|x l IH]; [contradiction|]. rewrite !count_lt_cons.
  pose proof (count_lt_mono a b l ltac:(lia)).
  destruct Hin as [-> | Hin].
  - rewrite Z.ltb_irrefl. destruct (Z.ltb_spec a b); lia.
  - specialize (IH Hin). destruct (Z.ltb_spec x a), (Z.ltb_spec x b); lia.
Qed.

Lemma count_lt_bound x l : 0 <= count_lt x l <= Z.of_nat (length l) /\ (In x l -> count_lt x l < Z.of_nat (length l)).
Proof.
  induction l as [|y l [IH1 IH2]].
  - unfold count_lt. simpl. split; [lia | contradiction].
  - rewrite count_lt_cons. simpl length. split.
    + destruct (Z.ltb y x); lia.
    + intros [-> | Hin].
      * rewrite Z.ltb_irrefl. lia.
      * specialize (IH2 Hin). destruct (Z.ltb y x); lia.
Qed.

Lemma rank_injective labs start a b : In a labs -> In b labs -> rank_fn labs start a = rank_fn labs start b -> a = b.
Proof.
  intros Ha Hb E. unfold rank_fn in E.
  destruct (Z.lt_trichotomy a b) as [L | [L | L]]; auto.
  - pose proof (count_lt_strict a b labs L Ha). lia.
  - pose proof (count_lt_strict b a labs L Hb). lia.
Qed.

Lemma rank_range labs start a : In a labs -> start <= rank_fn labs start a < start + Z.of_nat (length labs).
Proof. intros Ha. unfold rank_fn. destruct (count_lt_bound a labs) as [B1 B2]. specialize (B2 Ha). lia. Qed.
Local Close Scope Z_scope.

Definition special (tn : string) : bool :=
  String.eqb tn "junction" || String.eqb tn "junction_geodata" || String.eqb tn "pipe_geodata" || prefix "res_" tn.
(* label-only tables carry no reference cells *)
Definition plain (n : net) : Prop := forall tn r, special tn = true -> In r (rows_of tn n) -> r_cells r = [].
(* every junction reference of the net is a column the operation knows *)
Definition covers (f : selector) (n : net) : Prop := allcells (fun tn col k => k = KJ -> f tn col k = true) n.

(* [plain] is a statement about every cell, so every operation keeps it *)
Lemma plain_allcells n : plain n <-> allcells (fun tn _ _ => special tn = false) n.
Proof.
  split.
  - intros H tn r c Hr Hc. destruct (special tn) eqn:S; [|reflexivity]. rewrite (H tn r S Hr) in Hc. contradiction.
  - intros H tn r S Hr. destruct (r_cells r) as [|c l] eqn:E; [reflexivity|].
    assert (Hc : In c (r_cells r)) by (rewrite E; now left). rewrite (H tn r c Hr Hc) in S. discriminate.
Qed.

Lemma plain_cell n tn r c : plain n -> In r (rows_of tn n) -> In c (r_cells r) -> special tn = false.
Proof. intros H. apply (proj1 (plain_allcells n) H). Qed.

Lemma plain_step s o n : plain n -> plain (step s o n).
Proof. rewrite !plain_allcells. apply allcells_step. Qed.

Lemma plain_filter_rows k n : plain n -> plain (filter_rows k n).
Proof. rewrite !plain_allcells. apply allcells_filter_rows. Qed.

Lemma res_is_special tn : prefix "res_" tn = true -> special tn = true.
Proof. intros H. unfold special. rewrite H. now rewrite !orb_true_r. Qed.

Lemma hit_true_iff sel js tn r :
  hit sel js tn r = true <-> exists c, In c (r_cells r) /\ sel tn c = true /\ In (c_val c) js.
Proof.
  unfold hit. rewrite existsb_exists. split; intros [c [Hc B]]; exists c; split; auto.
  - apply andb_true_iff in B. now rewrite <- memz_In.
  - apply andb_true_iff. now rewrite memz_In.
Qed.

Lemma hit_false_iff sel js tn r :
  hit sel js tn r = false <-> forall c, In c (r_cells r) -> sel tn c = true -> ~ In (c_val c) js.
Proof.
  rewrite <- not_true_iff_false, hit_true_iff. split.
  - intros H c Hc Hs Hin. apply H. eauto.
  - intros H (c & Hc & Hs & Hin). exact (H c Hc Hs Hin).
Qed.

Lemma hit_plain sel js tn r n : plain n -> special tn = true -> In r (rows_of tn n) -> hit sel js tn r = false.
Proof. intros H Hs Hr. unfold hit. now rewrite (H tn r Hs Hr). Qed.

Lemma drop_labels_rows p ls n tn r :
  In r (rows_of tn (drop_labels p ls n)) <-> In r (rows_of tn n) /\ ~ (p tn = true /\ In (r_label r) ls).
Proof.
  unfold drop_labels. now rewrite In_rows_filter, negb_true_iff, <- not_true_iff_false, andb_true_iff, memz_In.
Qed.

Lemma drop_elems_rows sel js n tn r :
  In r (rows_of tn (drop_elems sel js n)) <->
  In r (rows_of tn n) /\ hit sel js tn r = false /\
  match parent tn with Some e => ~ In (r_label r) (hit_labels sel js n e) | None => True end.
Proof.
  unfold drop_elems. rewrite In_rows_filter, andb_true_iff, negb_true_iff.
  destruct (parent tn); [rewrite negb_true_iff, memz_false|]; tauto.
Qed.

Lemma labels_of_drop_labels p ls n e l :
  In l (labels_of e (drop_labels p ls n)) <-> In l (labels_of e n) /\ ~ (p e = true /\ In l ls).
Proof.
  rewrite !In_labels_of. split.
  - intros (r & Hr & <-). apply drop_labels_rows in Hr. destruct Hr. eauto.
  - intros [(r & Hr & <-) Hn]. exists r. split; [|reflexivity]. apply drop_labels_rows. auto.
Qed.

Lemma drop_elems_RI_J sel js n : plain n -> RI_J n -> RI_J (drop_elems sel js n).
Proof.
  intros Hp. unfold drop_elems. apply (filter_refs KJ "junction"). intros tn r c r0 _ _ _ _ Hr0 _.
  rewrite (hit_plain sel js "junction" r0 n Hp eq_refl Hr0). reflexivity.
Qed.

Lemma drop_pipes_RI_J ps n : RI_J n -> RI_J (drop_labels (fam "pipe") ps n).
Proof.
  unfold drop_labels. apply (filter_refs KJ "junction").
  (* [fam "pipe" "junction"] computes to false: the filter keeps every junction row *)
  reflexivity.
Qed.

(* the cascading drops take away the rows of x with a label in ps and every row that refers to one of them through a
   cell f selects; for integrity it is enough that the rows left are not hit by ps and that no other row of x goes *)
Lemma unhit_refs kd x f ps n n' :
  (forall tn r c, In r (rows_of tn n) -> In c (r_cells r) -> c_kind c = kd -> f tn (c_col c) (c_kind c) = true) ->
  (forall tn r, In r (rows_of tn n') -> In r (rows_of tn n) /\ hit (on_cell f) ps tn r = false) ->
  (forall r0, In r0 (rows_of x n) -> ~ In (r_label r0) ps -> In r0 (rows_of x n')) ->
  refs_ok kd x n -> refs_ok kd x n'.
Proof.
  intros Hc Hsub Hkeep. apply sub_refs.
  - intros tn r Hr. exact (proj1 (Hsub tn r Hr)).
  - intros tn r c r0 Hr Hcc Hk Hr0 E. destruct (Hsub tn r Hr) as [Hrn Hh].
    apply Hkeep; [exact Hr0|]. rewrite E.
    exact (proj1 (hit_false_iff _ _ _ _) Hh c Hcc (Hc tn r c Hrn Hcc Hk)).
Qed.

(* drop_junctions(drop_elements=True) *)
Lemma drop_junctions_RI_J f js n : plain n -> covers f n -> RI_J n ->
  RI_J (drop_elems (on_cell f) js (drop_labels (fam "junction") js n)).
Proof.
  intros Hp Hc. apply (unhit_refs KJ "junction" f js n); [exact Hc | |].
  - intros tn r Hr. apply drop_elems_rows in Hr. destruct Hr as (Hr & Hh & _).
    apply drop_labels_rows in Hr. split; [exact (proj1 Hr) | exact Hh].
  - intros r0 Hr0 Hn. apply drop_elems_rows. split; [|split; [now apply (hit_plain _ _ _ _ n) | exact I]].
    apply drop_labels_rows. split; [exact Hr0 | now intros [_ Hin]].
Qed.

Lemma keep_row_iff sel js tn r : keep_row sel js tn r = true <->
  (exists c, In c (r_cells r) /\ sel tn c = true) /\ (forall c, In c (r_cells r) -> sel tn c = true -> In (c_val c) js).
Proof. unfold keep_row. now rewrite andb_true_iff, existsb_exists, guarded_all. Qed.

(* the row test of select_subnet on an element table *)
Lemma sel_pred_element sel selp js n tn r : special tn = false ->
  (sel_pred sel selp js n tn r = true <->
   keep_row sel js tn r = true /\
   forall c, In c (r_cells r) -> selp tn c = true -> In (c_val c) (kept_labels sel js n "pipe")).
Proof.
  unfold special, sel_pred. intros S. apply orb_false_iff in S. destruct S as [S P].
  apply orb_false_iff in S. destruct S as [S G]. rewrite S, G, P. now rewrite andb_true_iff, guarded_all.
Qed.

Lemma select_RI_J f selp js n : plain n -> covers f n -> RI_J n -> RI_J (select (on_cell f) selp js n).
Proof.
  intros Hp Hc. rewrite select_sel_pred. apply (filter_refs KJ "junction"). intros tn r c r0 Hr Hs Hcc Hk _ E.
  change (memz (r_label r0) js = true). rewrite E. apply memz_In.
  apply (sel_pred_element _ _ _ _ _ _ (plain_cell n tn r c Hp Hr Hcc)) in Hs. destruct Hs as [Hs _].
  apply keep_row_iff in Hs. apply Hs; [exact Hcc|]. exact (Hc tn r c Hr Hcc Hk).
Qed.

Lemma others_spec j1 js x : In x (others j1 js) <-> In x js /\ x <> j1.
Proof. unfold others. now rewrite filter_In, negb_true_iff, Z.eqb_neq. Qed.

(* fuse_junctions(drop=False): references are redirected, the junctions stay *)
Lemma redirect_RI_J f j1 js n : RI_J n -> In j1 (labels_of "junction" n) -> RI_J (redirect (on_cell f) j1 js n).
Proof. intros H Hj1. apply (redirect_refs KJ "junction"); auto. Qed.

(* after the redirection no known junction reference points into js *)
Lemma redirect_clears f j1 js n tn r c : covers f n -> ~ In j1 js ->
  In r (rows_of tn (redirect (on_cell f) j1 js n)) -> In c (r_cells r) -> c_kind c = KJ -> ~ In (c_val c) js.
Proof.
  intros Hc Hj Hr Hcc Hk. rewrite redirect_patch in Hr.
  destruct (patch_cell _ _ _ _ _ _ _ Hr Hcc) as (r0 & c0 & Hr0 & Hc0 & _ & Ek & ->). rewrite Ek in Hk.
  unfold on_cell at 1. rewrite (Hc tn r0 c0 Hr0 Hc0 Hk). simpl.
  destruct (memz (c_val c0) js) eqn:M; [exact Hj | now apply memz_false].
Qed.

Lemma fuse_RI_J f j1 js n : covers f n -> RI_J n -> In j1 (labels_of "junction" n) ->
  RI_J (drop_labels (fam "junction") (others j1 js) (redirect (on_cell f) j1 (others j1 js) n)).
Proof.
  intros Hc H Hj1. unfold drop_labels. apply (filter_refs KJ "junction"); [|now apply redirect_RI_J].
  intros tn r c r0 Hr _ Hcc Hk _ E. rewrite E. apply negb_true_iff, andb_false_intro2, memz_false.
  apply (redirect_clears f j1 (others j1 js) n tn r c); auto.
  intros Hin. apply others_spec in Hin. now destruct Hin.
Qed.

Lemma rows_of_select_res_nonres sel selp js n tn : prefix "res_" tn = false ->
  rows_of tn (select_res sel selp js n) = rows_of tn (select sel selp js n).
Proof. intros P. unfold select_res. rewrite select_sel_pred, !rows_of_filter_rows, P. reflexivity. Qed.

(* include_results=True: result rows hold no reference, and outside the result tables nothing changes *)
Lemma select_res_refs kd x sel selp js n : plain n -> prefix "res_" x = false ->
  refs_ok kd x (select sel selp js n) -> refs_ok kd x (select_res sel selp js n).
Proof.
  intros Hp Px H tn r c Hr Hc Hk.
  assert (P : prefix "res_" tn = false).
  { destruct (prefix "res_" tn) eqn:P; [|reflexivity]. apply In_rows_filter in Hr. destruct Hr as [Hr _].
    rewrite (Hp tn r (res_is_special tn P) Hr) in Hc. contradiction. }
  rewrite labels_of_rows_of, rows_of_select_res_nonres, <- labels_of_rows_of by exact Px.
  rewrite rows_of_select_res_nonres in Hr by exact P. exact (H tn r c Hr Hc Hk).
Qed.

(* a semantics never treats a junction reference as a pipe reference *)
Definition selP_sane (s : sem) : Prop := forall tn col k, selP s tn col k = true -> k <> KJ.
Lemma model_sem_sane : selP_sane model_sem.
Proof. intros tn col k H. simpl in H. destruct k; simpl in H; try congruence. now rewrite andb_false_r in H. Qed.
Lemma spec_sem_sane : selP_sane spec_sem.
Proof. intros tn col k H. simpl in H. destruct k; simpl in H; congruence. Qed.

(* relabelling table e renames the junction labels only if e is the junction table *)
Definition elem_guard (e : string) : Prop := e = "junction" \/ fam e "junction" = false.

Lemma relabel_sel_for_RI_J s cs e rho n : selP_sane s -> elem_guard e -> covers (selJ s cs) n ->
  RI_J n -> RI_J (relabel e rho (sel_for s cs e) n).
Proof.
  intros Hs Hg Hc. apply (relabel_refs KJ "junction"). intros tn r c Hr Hcc Hk.
  destruct (sel_for_cases s cs e) as [[-> ->] | [[-> ->] | (N1 & _ & ->)]].
  - exact (Hc tn r c Hr Hcc Hk).
  - destruct (on_cell (selP s) tn c) eqn:S; [|reflexivity]. destruct (Hs _ _ _ S Hk).
  - destruct Hg as [E | E]; [contradiction | now rewrite E].
Qed.

Lemma cont_all_RI_J s cs order start n : selP_sane s -> Forall elem_guard order -> covers (selJ s cs) n ->
  RI_J n -> RI_J (cont_all s cs order start n).
Proof.
  intros Hs. revert n. induction order as [|e r IH]; intros n HF Hc H; simpl; auto.
  inversion HF; subst. apply IH; auto.
  - unfold covers, cont_elem. now apply allcells_relabel.
  - now apply relabel_sel_for_RI_J.
Qed.

Definition ri_guard (o : op) (n : net) : Prop :=
  match o with
  | Reindex _ e _ | ContElem _ e _ => elem_guard e
  | ContAll _ order _ => Forall elem_guard order
  | Fuse _ j1 _ | FuseKeep _ j1 _ => In j1 (labels_of "junction" n)
  | DropJ _ _ cascade => cascade = true
  | _ => True
  end.
Definition cover_hyp (s : sem) (o : op) (n : net) : Prop :=
  match o with DropElems _ _ | DropP _ => True | _ => covers (selJ s (cs_of o)) n end.

Lemma step_RI_J s o n : selP_sane s -> plain n -> cover_hyp s o n -> ri_guard o n -> RI_J n -> RI_J (step s o n).
Proof.
  intros Hs Hp Hc Hg H. destruct o; simpl in *.
  - now apply relabel_sel_for_RI_J.
  - now apply relabel_sel_for_RI_J.
  - now apply cont_all_RI_J.
  - now apply fuse_RI_J.
  - now apply select_RI_J.
  - subst cascade. apply drop_elems_RI_J; [|now apply drop_junctions_RI_J].
    unfold drop_elems, drop_labels. now repeat apply plain_filter_rows.
  - apply drop_elems_RI_J; [|now apply drop_elems_RI_J]. now apply plain_filter_rows.
  - apply drop_pipes_RI_J. now apply drop_elems_RI_J.
  - now apply redirect_RI_J.
  - apply (select_res_refs KJ "junction"); auto. now apply select_RI_J.
Qed.

Fixpoint guards (s : sem) (ops : list op) (n : net) : Prop :=
  match ops with [] => True | o :: r => ri_guard o n /\ guards s r (step s o n) end.

Lemma cover_hyp_step s o o' n : cover_hyp s o n -> cover_hyp s o (step s o' n).
Proof. destruct o; simpl; auto; intros H; unfold covers in *; now apply allcells_step. Qed.

Lemma exec_RI_J s ops n : selP_sane s -> plain n -> (forall o, In o ops -> cover_hyp s o n) -> guards s ops n ->
  RI_J n -> RI_J (exec s ops n).
Proof.
  intros Hs. revert n. induction ops as [|o r IH]; intros n Hp Hc Hg H; simpl; auto.
  destruct Hg as [G1 G2]. apply IH; auto.
  - now apply plain_step.
  - intros o' Ho'. apply cover_hyp_step. apply Hc. now right.
  - apply step_RI_J; auto. apply Hc. now left.
Qed.

(* nets without pipe references: nothing can dangle on the pipe side *)
Definition no_pipe_refs (n : net) : Prop := allcells (fun _ _ k => k <> KP) n.

Lemma exec_RI_partial s ops n : selP_sane s -> plain n -> (forall o, In o ops -> cover_hyp s o n) ->
  guards s ops n -> no_pipe_refs n -> RI n -> RI (exec s ops n).
Proof.
  intros Hs Hp Hc Hg Hn [HJ _]. split; [now apply exec_RI_J|].
  intros tn r c Hr Hcc Hk. destruct (allcells_exec _ s ops n Hn tn r c Hr Hcc Hk).
Qed.

(* the dropping / selecting operations only remove rows: every row left is an unchanged row of the net *)
Definition removes_only (o : op) : bool :=
  match o with Select _ _ | SelectRes _ _ | DropJ _ _ _ | DropElems _ _ | DropP _ => true | _ => false end.

Lemma fuse_cells s cs j1 js n tn r' :
  In r' (rows_of tn (step s (Fuse cs j1 js) n)) ->
  exists r, In r (rows_of tn n) /\ r_label r' = r_label r /\
    r_cells r' = map (fun c => if selJ s cs tn (c_col c) (c_kind c) && memz (c_val c) (others j1 js)
                               then set_val c j1 else c) (r_cells r).
Proof.
  simpl. unfold drop_labels, redirect. rewrite In_rows_filter, rows_of_map_rows.
  intros [H _]. apply in_map_iff in H. destruct H as [r [<- Hr]]. exists r. auto.
Qed.

Lemma fuse_junction_rows s cs j1 js n l :
  In l (labels_of "junction" (step s (Fuse cs j1 js) n)) <->
  In l (labels_of "junction" n) /\ ~ In l (others j1 js).
Proof.
  simpl. rewrite labels_of_drop_labels, labels_of_redirect. split; intros [H N]; (split; [exact H|]).
  - intros Hin. apply N. split; [apply fam_refl | exact Hin].
  - intros [_ Hin]. exact (N Hin).
Qed.

(* every pipe reference of the net is a cell f selects; f selects nothing in the pipe table *)
Definition coversP (f : selector) (n : net) : Prop := allcells (fun tn col k => k = KP -> f tn col k = true) n.
Definition pipe_unhit (f : selector) (n : net) : Prop := allcells (fun tn col k => tn = "pipe" -> f tn col k = false) n.

Lemma unhit_row f ps n r0 : pipe_unhit f n -> In r0 (rows_of "pipe" n) -> hit (on_cell f) ps "pipe" r0 = false.
Proof.
  intros H Hr. apply hit_false_iff. intros c Hc Hs. unfold on_cell in Hs.
  rewrite (H "pipe" r0 c Hr Hc eq_refl) in Hs. discriminate.
Qed.

(* dropping the rows that reference the pipes ps, then the pipes ps themselves *)
Lemma drop_refs_then_pipes_RI_P f ps n : coversP f n -> pipe_unhit f n -> RI_P n ->
  RI_P (drop_labels (fam "pipe") ps (drop_pipe_refs (on_cell f) ps n)).
Proof.
  intros Hc Hu. unfold drop_pipe_refs. apply (unhit_refs KP "pipe" f ps n); [exact Hc | |].
  - intros tn r Hr. apply drop_labels_rows in Hr. destruct Hr as [Hr _].
    apply drop_elems_rows in Hr. destruct Hr as (Hr & Hh & _). split; [exact Hr | exact Hh].
  - intros r0 Hr0 Hn. apply drop_labels_rows. split; [|now intros [_ Hin]].
    apply drop_elems_rows. split; [exact Hr0 | split; [now apply (unhit_row f ps n) | exact I]].
Qed.

(* drop_elements_at_junctions: rows at the junctions (pipes among them), then the rows that reference those pipes *)
Lemma drop_elems_full_RI_P sel f js n : coversP f n -> pipe_unhit f n -> RI_P n ->
  RI_P (drop_elems_full sel (on_cell f) js n).
Proof.
  intros Hc Hu. unfold drop_elems_full, drop_pipe_refs.
  apply (unhit_refs KP "pipe" f (hit_labels sel js n "pipe") n); [exact Hc | |].
  - intros tn r Hr. apply drop_elems_rows in Hr. destruct Hr as (Hr & Hh & _).
    apply drop_elems_rows in Hr. split; [exact (proj1 Hr) | exact Hh].
  - intros r0 Hr0 Hn. apply drop_elems_rows. split; [|split; [now apply (unhit_row f _ n) | exact I]].
    apply drop_elems_rows. split; [exact Hr0 | split; [|exact I]].
    apply not_true_iff_false. intros Hh0. apply Hn.
    rewrite hit_labels_filter. apply In_labels_of. exists r0. split; [|reflexivity]. now apply In_rows_filter.
Qed.

Lemma drop_junction_rows_RI_P js n : RI_P n -> RI_P (drop_labels (fam "junction") js n).
Proof.
  unfold drop_labels. apply (filter_refs KP "pipe").
  (* [fam "junction" "pipe"] computes to false: the filter keeps every pipe row *)
  reflexivity.
Qed.

Definition drop_op (o : op) : bool :=
  match o with DropJ _ _ true | DropElems _ _ | DropP _ => true | _ => false end.

Lemma step_drop_RI_P s o n : drop_op o = true -> coversP (selP s) n -> pipe_unhit (selP s) n -> RI_P n -> RI_P (step s o n).
Proof.
  intros Hd Hc Hu H. destruct o; try discriminate; simpl.
  - destruct cascade; [|discriminate]. apply drop_elems_full_RI_P.
    + unfold coversP, drop_labels. now apply allcells_filter_rows.
    + unfold pipe_unhit, drop_labels. now apply allcells_filter_rows.
    + now apply drop_junction_rows_RI_P.
  - now apply drop_elems_full_RI_P.
  - now apply drop_refs_then_pipes_RI_P.
Qed.

(* the junction selector never selects a pipe reference (the code's does not since 4bbab2a): with it the pipe
   references survive every operation, not only the dropping ones *)
Definition selJ_noP (f : selector) (n : net) : Prop := allcells (fun tn col k => f tn col k = true -> k <> KP) n.

(* [elem_guard] for the pipe labels: the relabelled table is junction, pipe, or one whose family does not contain pipe *)
Definition elem_guard_p (e : string) : Prop := e = "junction" \/ e = "pipe" \/ (fam e "pipe" = false /\ e <> "junction" /\ e <> "pipe").

Lemma relabel_sel_for_RI_P s cs e rho n : elem_guard_p e -> selJ_noP (selJ s cs) n -> coversP (selP s) n ->
  RI_P n -> RI_P (relabel e rho (sel_for s cs e) n).
Proof.
  intros Hg HJ HP. apply (relabel_refs KP "pipe"). intros tn r c Hr Hcc Hk.
  destruct (sel_for_cases s cs e) as [[-> ->] | [[-> ->] | (N1 & N2 & ->)]].
  - destruct (on_cell (selJ s cs) tn c) eqn:S; [|reflexivity]. destruct (HJ tn r c Hr Hcc S Hk).
  - exact (HP tn r c Hr Hcc Hk).
  - destruct Hg as [E | [E | [E _]]]; [contradiction | contradiction | now rewrite E].
Qed.

Lemma cont_all_RI_P s cs order start n : Forall elem_guard_p order -> selJ_noP (selJ s cs) n -> coversP (selP s) n ->
  RI_P n -> RI_P (cont_all s cs order start n).
Proof.
  revert n. induction order as [|e r IH]; intros n HF HJ HP H; simpl; auto.
  inversion HF; subst. apply IH; auto.
  - unfold selJ_noP, cont_elem. now apply allcells_relabel.
  - unfold coversP, cont_elem. now apply allcells_relabel.
  - now apply relabel_sel_for_RI_P.
Qed.

Lemma redirect_RI_P f j1 js n : selJ_noP f n -> RI_P n -> RI_P (redirect (on_cell f) j1 js n).
Proof.
  intros HJ. apply (redirect_refs KP "pipe"). intros tn r c Hr Hc Hk B. apply andb_true_iff in B.
  destruct (HJ tn r c Hr Hc (proj1 B) Hk).
Qed.

Lemma fuse_RI_P f j1 js n : selJ_noP f n -> RI_P n ->
  RI_P (drop_labels (fam "junction") js (redirect (on_cell f) j1 js n)).
Proof. intros HJ H. apply drop_junction_rows_RI_P. now apply redirect_RI_P. Qed.

(* a pipe row holds no pipe reference, so the pipes of the subnet are the kept pipes ... *)
Lemma select_pipes sel f js n : pipe_unhit f n ->
  labels_of "pipe" (select sel (on_cell f) js n) = kept_labels sel js n "pipe".
Proof.
  intros Hu. rewrite kept_labels_filter, select_sel_pred, !labels_of_rows_of, !rows_of_filter_rows.
  f_equal. apply filter_ext_in. intros r0 Hr0. apply eq_true_iff_eq.
  rewrite (sel_pred_element _ _ _ _ "pipe" r0 eq_refl). split; [now intros [K _]|].
  intros K. split; [exact K|]. intros c0 Hc0 Hs0.
  unfold on_cell in Hs0. rewrite (Hu "pipe" r0 c0 Hr0 Hc0 eq_refl) in Hs0. discriminate.
Qed.

(* ... and those are what select_subnet tests the pipe references of a row against *)
Lemma select_RI_P sel f js n : plain n -> coversP f n -> pipe_unhit f n -> RI_P (select sel (on_cell f) js n).
Proof.
  intros Hp Hc Hu tn r c Hr Hcc Hk. rewrite (select_pipes sel f js n Hu).
  rewrite select_sel_pred in Hr. apply In_rows_filter in Hr. destruct Hr as [Hr Hs].
  apply (sel_pred_element _ _ _ _ _ _ (plain_cell n tn r c Hp Hr Hcc)) in Hs.
  exact (proj2 Hs c Hcc (Hc tn r c Hr Hcc Hk)).
Qed.

Definition ri_guard_p (o : op) : Prop :=
  match o with
  | Reindex _ e _ | ContElem _ e _ => elem_guard_p e
  | ContAll _ order _ => Forall elem_guard_p order
  | DropJ _ _ cascade => cascade = true
  | _ => True
  end.

Lemma step_RI_P s o n : plain n -> selJ_noP (selJ s (cs_of o)) n -> coversP (selP s) n -> pipe_unhit (selP s) n ->
  ri_guard_p o -> RI_P n -> RI_P (step s o n).
Proof.
  intros Hp HJ HP Hu Hg H. destruct (drop_op o) eqn:D; [now apply step_drop_RI_P|].
  destruct o; simpl in *; try discriminate D.
  - now apply relabel_sel_for_RI_P.
  - now apply relabel_sel_for_RI_P.
  - now apply cont_all_RI_P.
  - now apply fuse_RI_P.
  - now apply select_RI_P.
  - subst cascade. discriminate D.
  - now apply redirect_RI_P.
  - apply (select_res_refs KP "pipe"); auto. now apply select_RI_P.
Qed.

(* for today's code the three selector hypotheses follow from "pipe references live in valve.element" *)
Lemma pexact_model_coversP n : pexact n -> coversP (selP model_sem) n /\ pipe_unhit (selP model_sem) n.
Proof.
  intros H. split; intros tn r c Hr Hc; simpl.
  - intros K. specialize (H tn r c Hr Hc). simpl in H. rewrite K in H. destruct (H eq_refl) as [-> ->]. now rewrite K.
  - intros ->. reflexivity.
Qed.

Lemma pexact_model_noP cs n : pexact n -> selJ_noP (selJ model_sem cs) n.
Proof.
  intros H tn r c Hr Hc. simpl. intros Hs K. specialize (H tn r c Hr Hc). simpl in H. rewrite K in H.
  destruct (H eq_refl) as [E1 E2]. rewrite E1, E2, K in Hs. simpl in Hs. now rewrite andb_false_r in Hs.
Qed.

Fixpoint guards_p (ops : list op) : Prop := match ops with [] => True | o :: r => ri_guard_p o /\ guards_p r end.

Lemma exec_RI_P ops n : plain n -> pexact n -> guards_p ops -> RI_P n -> RI_P (exec model_sem ops n).
Proof.
  revert n. induction ops as [|o r IH]; intros n Hp Hx Hg H; [exact H|]. destruct Hg as [G1 G2].
  apply IH; auto.
  - now apply plain_step.
  - unfold pexact. now apply allcells_step.
  - destruct (pexact_model_coversP n Hx). apply step_RI_P; auto. now apply pexact_model_noP.
Qed.

Fixpoint all_drops (ops : list op) : bool :=
  match ops with [] => true | o :: r => drop_op o && all_drops r end.

(* a sequence of dropping operations meets every guard *)
Lemma all_drops_guards s ops : all_drops ops = true -> forall n, guards s ops n /\ guards_p ops.
Proof.
  induction ops as [|o r IH]; intros Ha n; [split; exact I|]. simpl in Ha. apply andb_true_iff in Ha.
  destruct Ha as [Hd Ha]. destruct (IH Ha (step s o n)) as [G GP].
  destruct o; try discriminate Hd; try (destruct cascade; [|discriminate Hd]); repeat split; auto.
Qed.

Lemma subnet_rows cs js n tn r : special tn = false -> (forall c, In c (r_cells r) -> c_kind c <> KP) ->
  (In r (rows_of tn (step spec_sem (Select cs js) n)) <->
   In r (rows_of tn n) /\ (exists c, In c (r_cells r) /\ c_kind c = KJ) /\
   (forall c, In c (r_cells r) -> c_kind c = KJ -> In (c_val c) js)).
Proof.
  intros S HnoP.
  change (step spec_sem (Select cs js) n)
    with (filter_rows (sel_pred (on_cell (selJ spec_sem cs)) (on_cell (selP spec_sem)) js n) n).
  rewrite In_rows_filter, (sel_pred_element _ _ _ _ _ _ S), keep_row_iff. unfold on_cell. simpl.
  setoid_rewrite kj_iff. setoid_rewrite kp_iff. split; [tauto|].
  intros (Hr & He & Ha). repeat split; auto. intros c Hc K. destruct (HnoP c Hc K).
Qed.

Lemma subnet_junctions cs js n l s :
  In l (labels_of "junction" (step s (Select cs js) n)) <-> In l (labels_of "junction" n) /\ In l js.
Proof.
  simpl. rewrite select_sel_pred, !In_labels_of. split.
  - intros (r & Hr & <-). apply In_rows_filter in Hr. destruct Hr as [Hr K]. split; [eauto | now apply memz_In].
  - intros [(r & Hr & <-) Hj]. exists r. split; [|reflexivity]. apply In_rows_filter. split; [exact Hr | now apply memz_In].
Qed.

(* frame in terms of the payload:
   whatever an operation does, every row it leaves is a row of the net before with the same cells of kind KN
   (the harness ships all non-reference columns of a row - element, geodata and result rows - as one KN cell) *)
Definition is_kn (c : cell) : bool := match c_kind c with KN => true | _ => false end.
Definition kn_cells (r : row) : list cell := filter is_kn (r_cells r).
Definition noKN (f : selector) (n : net) : Prop := allcells (fun tn col k => f tn col k = true -> k <> KN) n.

Lemma filter_kn_map (p : cell -> bool) (g : cell -> Z) (l : list cell) :
  (forall c, In c l -> p c = true -> c_kind c <> KN) ->
  filter is_kn (map (fun c => if p c then set_val c (g c) else c) l) = filter is_kn l.
Proof.
  induction l as [|c l IH]; intros H; simpl; auto.
  rewrite IH by (intros c0 Hc0; apply H; now right).
  destruct (p c) eqn:P; auto.
  assert (K : c_kind c <> KN) by (apply H; [now left | exact P]).
  unfold is_kn. simpl. destruct (c_kind c); auto. contradiction.
Qed.

Definition keeps_kn (n n' : net) : Prop :=
  forall tn r', In r' (rows_of tn n') -> exists r, In r (rows_of tn n) /\ kn_cells r' = kn_cells r.

Lemma keeps_kn_refl n : keeps_kn n n.
Proof. intros tn r Hr. eauto. Qed.

Lemma keeps_kn_trans a b c : keeps_kn a b -> keeps_kn b c -> keeps_kn a c.
Proof.
  intros H1 H2 tn r'' Hr. destruct (H2 tn r'' Hr) as [r' [Hr' E']]. destruct (H1 tn r' Hr') as [r [Hr0 E]].
  exists r. split; auto. congruence.
Qed.

Lemma keeps_kn_filter k n m : keeps_kn n m -> keeps_kn n (filter_rows k m).
Proof. intros H tn r Hr. apply In_rows_filter in Hr. apply H. tauto. Qed.

Lemma keeps_kn_patch lab p v n :
  (forall tn r c, In r (rows_of tn n) -> In c (r_cells r) -> p tn c = true -> c_kind c <> KN) ->
  keeps_kn n (patch lab p v n).
Proof.
  intros H tn r' Hr. unfold patch in Hr. rewrite rows_of_map_rows in Hr. apply in_map_iff in Hr.
  destruct Hr as [r [<- Hr]]. exists r. split; [exact Hr|]. apply filter_kn_map. intros c. exact (H tn r c Hr).
Qed.

Lemma keeps_kn_sel_for s cs e rho n : noKN (selJ s cs) n -> noKN (selP s) n ->
  keeps_kn n (relabel e rho (sel_for s cs e) n).
Proof.
  intros HJ HP. rewrite relabel_patch. apply keeps_kn_patch.
  destruct (sel_for_cases s cs e) as [[_ ->] | [[_ ->] | (_ & _ & ->)]]; [exact HJ | exact HP | discriminate].
Qed.

Lemma keeps_kn_redirect f j1 js n : noKN f n -> keeps_kn n (redirect (on_cell f) j1 js n).
Proof.
  intros H. rewrite redirect_patch. apply keeps_kn_patch. intros tn r c Hr Hc P. apply andb_true_iff in P.
  exact (H tn r c Hr Hc (proj1 P)).
Qed.

Lemma keeps_kn_cont_all s cs order start n : noKN (selJ s cs) n -> noKN (selP s) n ->
  keeps_kn n (cont_all s cs order start n).
Proof.
  revert n. induction order as [|e r IH]; intros n HJ HP; simpl; [apply keeps_kn_refl|].
  apply keeps_kn_trans with (cont_elem s cs e start n); [unfold cont_elem; now apply keeps_kn_sel_for|].
  apply IH; unfold noKN, cont_elem; now apply allcells_relabel.
Qed.

Lemma step_keeps_kn s o n : noKN (selJ s (cs_of o)) n -> noKN (selP s) n -> keeps_kn n (step s o n).
Proof.
  intros HJ HP. destruct o; simpl in *; try destruct cascade;
    unfold reindex_elem, cont_elem, drop_elems_full, drop_pipe_refs, drop_elems, drop_labels, select, select_res;
    auto using keeps_kn_refl, keeps_kn_filter, keeps_kn_sel_for, keeps_kn_cont_all, keeps_kn_redirect.
Qed.

(* for today's code the hypotheses follow from exactness of the tuple set *)
Lemma exact_noKN cs n : exact cs n -> noKN (selJ model_sem cs) n.
Proof. intros H tn r c Hr Hc Hs K. rewrite (H tn r c Hr Hc) in Hs. rewrite K in Hs. discriminate. Qed.
Lemma model_selP_noKN n : noKN (selP model_sem) n.
Proof. intros tn r c Hr Hc Hs K. simpl in Hs. rewrite K in Hs. simpl in Hs. now rewrite andb_false_r in Hs. Qed.

(* the boolean checkers decide the propositions, so that the hypotheses of a concrete net are established by evaluation *)
Lemma cells_ok_iff p n :
  cells_ok p n = true <-> forall tn r c, In r (rows_of tn n) -> In c (r_cells r) -> p tn c = true.
Proof.
  unfold cells_ok. rewrite forallb_forall. split.
  - intros H tn r c Hr Hc. apply In_rows_of in Hr. destruct Hr as [t [Ht [<- Hr]]].
    specialize (H t Ht). rewrite forallb_forall in H. specialize (H r Hr). rewrite forallb_forall in H. now apply H.
  - intros H t Ht. apply forallb_forall. intros r Hr. apply forallb_forall. intros c Hc.
    apply (H (t_name t) r c); [apply In_rows_of; eauto | exact Hc].
Qed.

Lemma refs_ok_b kd x (isk : kind -> bool) n : (forall k, isk k = true <-> k = kd) ->
  (cells_ok (fun _ c => negb (isk (c_kind c)) || memz (c_val c) (labels_of x n)) n = true <-> refs_ok kd x n).
Proof.
  intros Hk. rewrite cells_ok_iff. split; intros H tn r c Hr Hc.
  - intros K. specialize (H tn r c Hr Hc). apply Hk in K. rewrite K in H. now apply memz_In.
  - destruct (isk (c_kind c)) eqn:K; [|reflexivity]. apply memz_In, (H tn r c Hr Hc), Hk, K.
Qed.

Lemma ri_jb_iff n : ri_jb n = true <-> RI_J n.
Proof. exact (refs_ok_b KJ "junction" kind_is_kj n kj_iff). Qed.
Lemma ri_pb_iff n : ri_pb n = true <-> RI_P n.
Proof. exact (refs_ok_b KP "pipe" kind_is_kp n kp_iff). Qed.

Lemma ri_pb_false n : ri_pb n = false -> ~ RI_P n.
Proof. rewrite <- ri_pb_iff. now apply not_true_iff_false. Qed.

Lemma ri_jb_false n : ri_jb n = false -> ~ RI_J n.
Proof. rewrite <- ri_jb_iff. now apply not_true_iff_false. Qed.

Lemma ri_b_RI n : ri_jb n = true -> ri_pb n = true -> RI n.
Proof. intros HJ HP. split; [now apply ri_jb_iff | now apply ri_pb_iff]. Qed.

Lemma exact_b_exact cs n : exact_b cs n = true -> exact cs n.
Proof.
  intros H tn r c Hr Hc. pose proof (proj1 (cells_ok_iff _ n) H tn r c Hr Hc) as E. now apply eqb_prop in E.
Qed.

Lemma pexact_b_pexact n : pexact_b n = true -> pexact n.
Proof.
  intros H tn r c Hr Hc K. pose proof (proj1 (cells_ok_iff _ n) H tn r c Hr Hc) as E.
  cbv beta in E. unfold is_kp in E. rewrite (proj1 (kp_iff _) K) in E.
  apply andb_true_iff in E. destruct E as [E1 E2]. apply String.eqb_eq in E1, E2. auto.
Qed.
