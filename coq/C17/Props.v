(* C17 - property theorems only.  Model: C17/Model.v (tied to toolbox.py by exact correspondence);
   Gen/C17TupleSet.v is regenerated on every run from element_junction_tuples() of the code under test. *)
From Coq Require Import String List Bool ZArith.
From PP Require Import C17.Model C17.Proofs Gen.C17TupleSet.
From PP Require C04.Model C04.ProofsReduce C17.Subnet.
Import ListNotations.
Open Scope string_scope.

(* ---- today's code does what the property demands whenever the tuple set is exactly the set of
        junction-reference columns of the net and pipe references live in valve.element ---- *)
Theorem model_meets_spec : forall ops n,
  (forall o, In o ops -> exact (cs_of o) n) -> pexact n -> exec model_sem ops n = exec spec_sem ops n.
Proof.
  induction ops as [|o r IH]; intros n HE HP; [reflexivity|].
  change (exec model_sem r (step model_sem o n) = exec spec_sem r (step spec_sem o n)).
  rewrite (step_model_eq_spec o n) by (auto; apply HE; now left).
  apply IH; [intros o' Ho'; apply allcells_step, HE; now right | now apply allcells_step].
Qed.
Print Assumptions model_meets_spec.

(* reindex_junctions = renaming rho on the junction index, its geodata / result index and EVERY junction reference *)
Theorem reindex_is_renaming : forall cs lk n, exact cs n ->
  step model_sem (Reindex cs "junction" lk) n = rename "junction" (app_lk lk) kind_is_kj n.
Proof.
  (* both sides relabel by the same map; their cell tests are the junction selectors of model_sem and of spec_sem *)
  intros cs lk n H. exact (relabel_agree _ _ _ _ n (agree_agree_in (selJ model_sem cs) (selJ spec_sem cs) n H)).
Qed.
Print Assumptions reindex_is_renaming.

(* reindex_pipes = renaming on the pipe index and the pipe references of pi valves *)
Theorem reindex_pipes_is_renaming : forall cs lk n, pexact n ->
  step model_sem (Reindex cs "pipe" lk) n = rename "pipe" (app_lk lk) kind_is_kp n.
Proof.
  intros cs lk n H. exact (relabel_agree _ _ _ _ n (agree_agree_in (selP model_sem) (selP spec_sem) n (pexact_agree n H))).
Qed.
Print Assumptions reindex_pipes_is_renaming.

(* the witness net of the examples: junctions 0..4, pipes 1:(0,1) 3:(1,2) 7:(2,3) 2:(3,4),
   a pi valve at junction 1 on pipe 1, ext grid at 0, sink at 4 *)
Definition jcell (col : string) (v : Z) := mkCell col KJ v.
Definition wpipe (l a b : Z) := mkRow l [jcell "from_junction" a; jcell "to_junction" b].
Definition witness : net :=
  [ mkTable "junction" [mkRow 0 []; mkRow 1 []; mkRow 2 []; mkRow 3 []; mkRow 4 []];
    mkTable "pipe" [wpipe 1 0 1; wpipe 3 1 2; wpipe 7 2 3; wpipe 2 3 4];
    mkTable "valve" [mkRow 0 [mkCell "element" KP 1; jcell "junction" 1]];
    mkTable "ext_grid" [mkRow 0 [jcell "junction" 0]];
    mkTable "sink" [mkRow 0 [jcell "junction" 4]] ]%Z.
Definition witness_no_valve : net := filter (fun t => negb (String.eqb (t_name t) "valve")) witness.
Definition swap_lookup : list (Z * Z) := [(0, 4); (1, 3); (2, 2); (3, 1); (4, 0)]%Z.

Example witness_is_intact : RI witness /\ ok model_sem (Reindex today_cs "junction" swap_lookup) witness = true.
Proof. split; [apply ri_b_RI; vm_compute; reflexivity | vm_compute; reflexivity]. Qed.

(* the hypotheses hold for the witness WITH its pipe-attached valve and today's tuple set (since 4bbab2a), and the
   valve stays on pipe 1 while its junction follows the lookup *)
Example witness_is_exact :
  exact today_cs witness /\ pexact witness /\
  rows_of "valve" (step model_sem (Reindex today_cs "junction" swap_lookup) witness) =
    [mkRow 0 [mkCell "element" KP 1; mkCell "junction" KJ 3]].
Proof.
  split; [apply exact_b_exact | split; [apply pexact_b_pexact|]]; vm_compute; reflexivity.
Qed.

(* composition with the inverse lookup is the identity *)
Theorem rename_inverse_is_identity : forall e rho rho' k n,
  (forall x, rho' (rho x) = x) -> rename e rho' k (rename e rho k n) = n.
Proof. intros e rho rho' k n H. apply relabel_relabel_id; auto. Qed.
Print Assumptions rename_inverse_is_identity.

(* a renaming keeps every junction and pipe reference intact, and unique labels unique when injective *)
Theorem rename_preserves_integrity : forall rho n,
  RI n -> RI (rename "junction" rho kind_is_kj n) /\ RI (rename "pipe" rho kind_is_kp n).
Proof.
  intros rho n [HJ HP]. repeat split.
  - now apply (rename_refs KJ "junction").
  - now apply (rename_refs KP "pipe").
  - now apply (rename_refs KJ "junction").
  - now apply (rename_refs KP "pipe").
Qed.
Print Assumptions rename_preserves_integrity.

Theorem rename_keeps_labels_unique : forall e rho k n,
  (forall x y, In x (labels_of e n) -> In y (labels_of e n) -> rho x = rho y -> x = y) ->
  NoDup (labels_of e n) -> NoDup (labels_of e (rename e rho k n)).
Proof.
  intros e rho k n Hinj Hnd. unfold rename. rewrite labels_of_relabel, fam_refl. now apply NoDup_map_inj.
Qed.
Print Assumptions rename_keeps_labels_unique.

(* create_continuous_junction_index = renaming by rank: injective on the labels, onto start .. start+n-1 *)
Theorem continuous_index_is_rank_renaming : forall cs start n, exact cs n ->
  step model_sem (ContElem cs "junction" start) n =
    rename "junction" (rank_fn (labels_of "junction" n) start) kind_is_kj n.
Proof. intros cs start n H. exact (relabel_agree _ _ _ _ n (agree_agree_in (selJ model_sem cs) (selJ spec_sem cs) n H)). Qed.
Print Assumptions continuous_index_is_rank_renaming.

Theorem rank_is_injective_and_contiguous : forall labs start a b, In a labs -> In b labs ->
  (rank_fn labs start a = rank_fn labs start b -> a = b) /\
  (start <= rank_fn labs start a < start + Z.of_nat (length labs))%Z.
Proof.
  intros labs start a b Ha Hb. split; [now apply rank_injective | now apply rank_range].
Qed.
Print Assumptions rank_is_injective_and_contiguous.

(* after ANY sequence of the operations no junction reference dangles, provided the tuple set covers the
   junction-reference columns (guards: fuse target exists, drop_junctions with drop_elements=True) *)
Theorem no_dangling_junction_refs : forall ops n,
  plain n -> (forall o, In o ops -> cover_hyp model_sem o n) -> guards model_sem ops n ->
  RI_J n -> RI_J (exec model_sem ops n).
Proof. intros. apply exec_RI_J; auto. exact model_sem_sane. Qed.
Print Assumptions no_dangling_junction_refs.

(* after ANY sequence of the operations neither a junction nor a pipe
   reference dangles - pi valves, remote controlled junctions, select_subnet included.  Hypotheses: label-only tables
   carry no cells, pipe references live in valve.element, the tuple sets cover the junction-reference columns; guards:
   fuse target exists, drop_junctions with drop_elements=True, reindexed tables are junction / pipe / a table whose
   family contains neither.  /repo 4bbab2a and bef9209 repaired the defects that stood against it. *)
Theorem no_dangling : forall ops n,
  plain n -> pexact n -> (forall o, In o ops -> cover_hyp model_sem o n) ->
  guards model_sem ops n -> guards_p ops -> RI n -> RI (exec model_sem ops n).
Proof.
  intros ops n Hp Hx Hc Hg Hgp [HJ HP]. split; [|now apply exec_RI_P].
  apply exec_RI_J; auto. exact model_sem_sane.
Qed.
Print Assumptions no_dangling.

(* drop_pipes cascades to the attached valves (/repo bef9209), so after any sequence of drop_pipes,
   drop_elements_at_junctions and drop_junctions(drop_elements=True) neither a junction nor a PIPE reference
   dangles - pi valves included *)
Theorem no_dangling_after_drops : forall ops n,
  all_drops ops = true -> plain n -> pexact n -> (forall o, In o ops -> cover_hyp model_sem o n) ->
  RI n -> RI (exec model_sem ops n).
Proof.
  intros ops n Ha Hp Hx Hc. destruct (all_drops_guards model_sem ops Ha n). now apply no_dangling.
Qed.
Print Assumptions no_dangling_after_drops.

(* a single dropping operation keeps the pipe references intact whatever the tuple set is *)
Theorem drop_keeps_pipe_refs : forall o n, drop_op o = true -> pexact n -> RI_P n -> RI_P (step model_sem o n).
Proof. intros o n Hd Hx H. destruct (pexact_model_coversP n Hx). now apply step_drop_RI_P. Qed.
Print Assumptions drop_keeps_pipe_refs.

(* frame: the dropping / selecting operations leave every remaining row unchanged ... *)
Theorem frame_rows_unchanged : forall s o n tn r,
  removes_only o = true -> In r (rows_of tn (step s o n)) -> In r (rows_of tn n).
Proof.
  intros s o n tn r Ho H. destruct o; try discriminate; simpl in H; try destruct cascade;
    unfold select, select_res, drop_elems_full, drop_pipe_refs, drop_elems, drop_labels in H;
    repeat (apply In_rows_filter in H; destruct H as [H _]); exact H.
Qed.
Print Assumptions frame_rows_unchanged.

(* ... and drop_junctions keeps every element row that references none of the dropped junctions (and no pipe) *)
Theorem frame_untouched_rows_kept : forall s cs js n tn r,
  parent tn = None -> fam "junction" tn = false -> In r (rows_of tn n) ->
  (forall c, In c (r_cells r) -> selJ s cs tn (c_col c) (c_kind c) = true -> ~ In (c_val c) js) ->
  (forall c, In c (r_cells r) -> selP s tn (c_col c) (c_kind c) = false) ->
  In r (rows_of tn (step s (DropJ cs js true) n)).
Proof.
  intros s cs js n tn r Hpar Hfam Hr Hun HnoP. simpl. unfold drop_elems_full, drop_pipe_refs.
  apply drop_elems_rows. rewrite Hpar. split; [|split; [|exact I]].
  - apply drop_elems_rows. rewrite Hpar. split; [|split; [|exact I]].
    + apply drop_labels_rows. split; [exact Hr|]. rewrite Hfam. intros [? _]. discriminate.
    + apply hit_false_iff. exact Hun.
  - apply hit_false_iff. intros c Hc Hs. unfold on_cell in Hs. rewrite (HnoP c Hc) in Hs. discriminate.
Qed.
Print Assumptions frame_untouched_rows_kept.

(* fuse_junctions: every junction reference to a fused junction becomes j1, nothing else changes, the fused
   junctions disappear (stated for the specification semantics; equal to the code under exactness by
   model_meets_spec) *)
Theorem fuse_redirects : forall cs j1 js n,
  (forall tn r', In r' (rows_of tn (step spec_sem (Fuse cs j1 js) n)) ->
     exists r, In r (rows_of tn n) /\ r_label r' = r_label r /\
       r_cells r' = map (fun c => if kind_is_kj (c_kind c) && memz (c_val c) (others j1 js)
                                  then set_val c j1 else c) (r_cells r)) /\
  (forall l, In l (labels_of "junction" (step spec_sem (Fuse cs j1 js) n)) <->
             In l (labels_of "junction" n) /\ ~ In l (others j1 js)).
Proof. intros. split; [intros tn r'; apply fuse_cells | intros l; apply fuse_junction_rows]. Qed.
Print Assumptions fuse_redirects.

Theorem fuse_redirects_code : forall cs j1 js n, exact cs n -> pexact n ->
  step model_sem (Fuse cs j1 js) n = step spec_sem (Fuse cs j1 js) n.
Proof. intros. now apply step_model_eq_spec. Qed.
Print Assumptions fuse_redirects_code.

(* FRAME in terms of the payload ("never alter elements they were not asked to touch"): whatever the operation, every
   row it leaves - element, geodata or result row - is a row of the net before with identical KN cells; the harness
   ships all non-reference columns of a row as one KN cell (#payload, bit-exact hash), compared in every case.
   For the removing operations the whole row is unchanged (frame_rows_unchanged). *)
Theorem payload_follows_row : forall o n, exact (cs_of o) n ->
  forall tn r', In r' (rows_of tn (step model_sem o n)) ->
    exists r, In r (rows_of tn n) /\ kn_cells r' = kn_cells r.
Proof. intros o n H. apply step_keeps_kn; [now apply exact_noKN | apply model_selP_noKN]. Qed.
Print Assumptions payload_follows_row.

(* the non-default options are inside the model too: fuse_junctions(drop=False) and select_subnet(include_results=True)
   keep every reference intact (same hypotheses and guards as no_dangling, which quantifies over all constructors) *)
Example options_in_model :
  ri_jb (exec model_sem [FuseKeep today_cs 4%Z [1%Z]; SelectRes today_cs [4%Z; 3%Z; 2%Z]] witness) = true /\
  rows_of "valve" (step model_sem (FuseKeep today_cs 4%Z [1%Z]) witness) =
    [mkRow 0 [mkCell "element" KP 1; mkCell "junction" KJ 4]].
Proof. vm_compute. auto. Qed.

(* select_subnet = restriction to the region: an element row (without pipe reference) is in the subnet iff it has a
   junction reference and ALL its junction references are selected; the junctions are the selected ones.  For a region
   closed under element connections these are exactly the region's rows, so by C04 (reduce_eq_delete: the reduced
   system of a net with an unsupplied / absent rest is the system of the region) pipeflow on the subnet is the region's
   calculation - that last step is observed by the subnet monitor, not proved here.  Stated for the specification
   semantics; equal to the code by model_meets_spec. *)
Theorem subnet_of_supplied_region : forall cs js n,
  (forall tn r, special tn = false -> (forall c, In c (r_cells r) -> c_kind c <> KP) ->
     (In r (rows_of tn (step spec_sem (Select cs js) n)) <->
      In r (rows_of tn n) /\ (exists c, In c (r_cells r) /\ c_kind c = KJ) /\
      (forall c, In c (r_cells r) -> c_kind c = KJ -> In (c_val c) js))) /\
  (forall l, In l (labels_of "junction" (step spec_sem (Select cs js) n)) <-> In l (labels_of "junction" n) /\ In l js).
Proof. intros. split; [intros tn r; apply subnet_rows | intros l; apply subnet_junctions]. Qed.
Print Assumptions subnet_of_supplied_region.

(* ... composed with C04: the branch pit of the subnet (junction rows of the region; of every branch table the rows with
   both ends in the region - what subnet_of_supplied_region says select_subnet builds) IS the reduced pit of the full net
   under the masks "junction in region" / "branch inside region": same renumbered from / to positions, same structural
   flags, same order.  Side conditions: unique junction labels, intact references.  So whenever the calculation of the
   full net reduces to the region (the region is its supplied part: C18.graph_components_eq_islands / C04
   connectivity), solver and subnet work on the same pit; that hydraulically separate supplied islands do not influence
   each other is not proved here (subnet monitor). *)
Theorem subnet_pit_is_reduced_pit : forall js tabs region,
  NoDup js -> (forall r, In r (concat tabs) -> In (PP.C04.Model.r_from r) js /\ In (PP.C04.Model.r_to r) js) ->
  map PP.C04.ProofsReduce.ends (PP.C04.Model.mk_branches (PP.C17.Subnet.sub_js js region) (PP.C17.Subnet.sub_tabs tabs region)) =
  map (fun bf => (fst (snd bf), snd (snd bf),
                  (PP.C04.Model.b_active (fst bf), PP.C04.Model.b_directed (fst bf), PP.C04.Model.b_frc (fst bf))))
      (combine (PP.C06.Model.select (PP.C17.Subnet.bmask tabs region) (PP.C04.Model.mk_branches js tabs))
               (PP.C04.Model.reduce_ft (PP.C17.Subnet.nmask js region) (PP.C17.Subnet.bmask tabs region)
                                       (PP.C04.Model.mk_branches js tabs))).
Proof.
  intros js tabs region js_unique ends_exist. unfold PP.C17.Subnet.sub_js, PP.C17.Subnet.sub_tabs.
  rewrite <- (PP.C17.Subnet.select_map_filter (PP.C17.Subnet.in_region region) js),
          <- (PP.C17.Subnet.select_tabs_filter (PP.C17.Subnet.row_in_region region) tabs).
  apply PP.C04.ProofsReduce.reduce_eq_delete; auto.
  - unfold PP.C17.Subnet.nmask. now rewrite map_length.
  - unfold PP.C17.Subnet.bmask. now rewrite map_length.
  - (* a kept row has both ends in the region, and they are junctions of the full net *)
    intros r Hr. unfold PP.C17.Subnet.bmask in Hr. rewrite PP.C17.Subnet.select_map_filter in Hr.
    apply filter_In in Hr. destruct Hr as [Hr Hin]. apply andb_true_iff in Hin. destruct Hin as [Hf Ht].
    destruct (ends_exist r Hr) as [If It].
    destruct (In_nth _ _ 0%Z If) as [kf [Lf Ef]]. destruct (In_nth _ _ 0%Z It) as [kt [Lt Et]].
    exists kf, kt. unfold PP.C17.Subnet.nmask. repeat split; auto.
    + rewrite (PP.C17.Subnet.nthb_map (PP.C17.Subnet.in_region region) 0%Z js kf Lf). now rewrite Ef.
    + rewrite (PP.C17.Subnet.nthb_map (PP.C17.Subnet.in_region region) 0%Z js kt Lt). now rewrite Et.
Qed.
Print Assumptions subnet_pit_is_reduced_pit.

Example subnet_pit_instance :
  let js := [10; 4; 7; 22]%Z in
  let tabs := [[PP.C04.Model.Build_brow 1 10 4 true false false; PP.C04.Model.Build_brow 2 4 7 true false false];
               [PP.C04.Model.Build_brow 0 7 22 true true false]]%Z in
  map PP.C04.ProofsReduce.ends (PP.C04.Model.mk_branches (PP.C17.Subnet.sub_js js [4; 7; 22]%Z) (PP.C17.Subnet.sub_tabs tabs [4; 7; 22]%Z))
  = [(0, 1, (true, false, false)); (1, 2, (true, true, false))]%Z.
Proof. vm_compute. reflexivity. Qed.

(* non-vacuity: the witness without its valve is exact for today's tuple set and intact, and two sequences of five
   operations keep the junction references (valve-less witness) and the pipe references (witness) intact, by
   evaluation; [plain], [cover_hyp] and the guards are not shown of it *)
Example hypotheses_satisfiable :
  exact today_cs witness_no_valve /\ RI witness_no_valve /\
  ri_jb (exec model_sem [Reindex today_cs "junction" swap_lookup; Fuse today_cs 4%Z [3%Z]; DropJ today_cs [0%Z] true;
                         ContElem today_cs "junction" 5%Z] witness_no_valve) = true /\
  ri_pb (exec model_sem [Reindex today_cs "junction" swap_lookup; Fuse today_cs 4%Z [1%Z]; Select today_cs [4%Z; 3%Z; 2%Z];
                         ContElem today_cs "pipe" 5%Z; DropJ today_cs [2%Z] true] witness) = true.
Proof.
  split; [apply exact_b_exact; vm_compute; reflexivity|].
  split; [apply ri_b_RI; vm_compute; reflexivity|]. split; vm_compute; reflexivity.
Qed.
