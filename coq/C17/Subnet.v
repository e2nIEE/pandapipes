(* C17 - "a subnet made of a complete supplied region reproduces that region's results", at the level of pits
   (C17.Props.subnet_pit_is_reduced_pit): what select_subnet builds, written over C04's tables (junction labels, branch
   tables with from / to labels and the structural flags), and the region masks of a calculation of the full net; the
   theorem is C04.reduce_eq_delete (the reduced pit of a net = the pit of the net with the unmarked rows deleted) at
   these masks.  That [sub_js] / [sub_tabs] are what [Select] of C17/Model.v leaves (it keeps exactly the rows all of
   whose junction references lie in the region) is read off the two definitions, not proved. *)
From Coq Require Import ZArith List Bool.
From PP Require Import C06.Model C04.Model C04.ProofsReduce.
Import ListNotations.

Definition memz (x : Z) (l : list Z) : bool := existsb (Z.eqb x) l.

Section Subnet.
  Variable js : list Z.                    (* junction labels of the full net *)
  Variable tabs : list (list brow)%type.   (* its branch tables *)
  Variable region : list Z.                (* the junctions handed to select_subnet *)

  Definition in_region (j : Z) : bool := memz j region.
  Definition row_in_region (r : brow) : bool := in_region (r_from r) && in_region (r_to r).

  (* what select_subnet builds: the junction rows of the region, of every branch table the rows with both ends in it *)
  Definition sub_js : list Z := filter in_region js.
  Definition sub_tabs : list (list brow) := map (filter row_in_region) tabs.
  (* the masks of a calculation of the FULL net in which exactly the region is supplied / in service *)
  Definition nmask : list bool := map in_region js.
  Definition bmask : list bool := map row_in_region (concat tabs).

  Lemma select_map_filter {X} (p : X -> bool) (l : list X) : select (map p l) l = filter p l.
  Proof. induction l as [|x l IH]; simpl; auto. destruct (p x); now rewrite IH. Qed.

  Lemma firstn_map_app {X Y} (p : X -> Y) (a b : list X) : firstn (length a) (map p (a ++ b)) = map p a.
  Proof. rewrite map_app. rewrite <- (map_length p a). rewrite firstn_app, Nat.sub_diag, firstn_all. simpl. apply app_nil_r. Qed.

  Lemma skipn_map_app {X Y} (p : X -> Y) (a b : list X) : skipn (length a) (map p (a ++ b)) = map p b.
  Proof. rewrite map_app. rewrite <- (map_length p a). rewrite skipn_app, Nat.sub_diag, skipn_all. reflexivity. Qed.

  Lemma select_tabs_filter (p : brow -> bool) (ts : list (list brow)) :
    select_tabs (map p (concat ts)) ts = map (filter p) ts.
  Proof.
    induction ts as [|t ts IH]; simpl; auto.
    rewrite firstn_map_app, skipn_map_app, select_map_filter, IH. reflexivity.
  Qed.

  Lemma nthb_map {X} (p : X -> bool) (d : X) (l : list X) k : k < length l -> nthb (map p l) k = p (nth k l d).
  Proof.
    unfold nthb. intros H. rewrite (nth_indep _ false (p d)) by (now rewrite map_length). apply map_nth.
  Qed.
End Subnet.
