(* C04 - property theorems only (exactly the supplied part is calculated, unaffected by the rest), from the lemmas
   of ProofsConn.v / ProofsReduce.v.  They are about the hand-written models of C04/Model.v, which
   tools/props/c04.py ties to /repo by exact correspondences on all 2^k flag patterns. *)
From Coq Require Import ZArith List Bool Lia.
From PP Require Import C06.Model C04.Model C04.ProofsConn C04.ProofsReduce.
From PP Require C06.Proofs.
Import ListNotations.
Open Scope nat_scope.

(* nodes: the executable search (n breadth-first waves from the slack nodes) marks node i iff i is reachable:
   HReach = in-service pressure-fixed start node, or reached over an in-service, non flow-return-connect branch
   (both directions if undirected, from -> to only if DIRECTED) - for every branch list *)
Theorem connectivity_iff_reach : forall n bs nact slack,
  (forall b, In b bs -> b_from b < n /\ b_to b < n) ->
  forall i, nthb (fst (search_hyd n bs (map b_active bs) nact slack)) i = true <-> HReach n bs nact slack i.
Proof.
  intros n bs nact slack Hwf i. rewrite search_hyd_eq. simpl fst. now apply hnc_iff_hreach.
Qed.
Print Assumptions connectivity_iff_reach.

(* branches, incl. the post-pass that re-admits flow-return-connect branches whose both ends are reached *)
Theorem branch_connected_iff : forall n bs nact slack,
  (forall b, In b bs -> b_from b < n /\ b_to b < n) ->
  exists mark : branch -> bool,
    snd (search_hyd n bs (map b_active bs) nact slack) = map mark bs /\
    forall b, In b bs ->
      (mark b = true <->
       b_active b = true /\ HReach n bs nact slack (b_from b) /\ (b_frc b = true -> HReach n bs nact slack (b_to b))).
Proof.
  intros n bs nact slack Hwf. exists (bmark n bs nact slack). split.
  - now rewrite search_hyd_eq.
  - intros b _. now apply bmark_iff.
Qed.
Print Assumptions branch_connected_iff.

(* the internal ValueError of _connectivity is unreachable: the code compares nodes_connected[from] with
   nodes_connected[to] over the looked-up undirected branches and raises if they differ; the model has no such branch,
   the theorem says that the two marks are equal *)
Theorem connectivity_consistency_check_never_fires : forall n bs nact slack,
  (forall b, In b bs -> b_from b < n /\ b_to b < n) ->
  forall b, In b bs -> b_active b && negb (b_frc b) = true -> b_directed b = false ->
  nthb (hnc n bs nact slack) (b_from b) = nthb (hnc n bs nact slack) (b_to b).
Proof.
  intros n bs nact slack Hwf b Hb Hl Hd. apply (look_true b) in Hl. destruct Hl.
  apply eq_true_iff_eq. rewrite !hnc_iff_hreach by auto. split; intros; [now apply HR_fwd|now apply HR_bwd].
Qed.
Print Assumptions connectivity_consistency_check_never_fires.

(* thermal search: start nodes T / GE, hydraulic masks as look-ups *)
Theorem heat_connectivity_iff_reach : forall n bs bact nact tslack,
  (forall b, In b bs -> b_from b < n /\ b_to b < n) ->
  forall i, nthb (fst (search_heat n bs bact nact tslack)) i = true <->
            Reach (tedges bs bact) (tinit n nact tslack) i.
Proof.
  (* by conversion: tedges bs bact is edges_of bs bact, and tinit is the start mask hinit of the hydraulic search *)
  intros n bs bact nact tslack Hwf i. exact (connectivity_nodes_iff_reach n bs nact tslack Hwf bact i).
Qed.
Print Assumptions heat_connectivity_iff_reach.

(* no supplied junction (incl. the empty net) <=> the identification raises PipeflowNotConverged *)
Theorem no_supply_fails : forall n bs nact slack,
  (forall b, In b bs -> b_from b < n /\ b_to b < n) ->
  (identify_hyd true n bs nact slack = None <-> (forall i, i < n -> nthb slack i && nthb nact i = false)).
Proof.
  intros n bs nact slack Hwf. rewrite identify_hyd_eq, <- (hnc_all_false_iff n bs nact slack Hwf).
  destruct (all_false (hnc n bs nact slack)); split; intros; congruence.
Qed.
Print Assumptions no_supply_fails.

(* cumsum(mask) - 1 on the marked positions: strictly increasing, onto [0,k), keeps every row *)
Theorem reduce_is_order_preserving_bijection : forall m,
  (forall i j, i < j -> j < length m -> nthb m i = true -> nthb m j = true -> (renum m i < renum m j)%Z)
  /\ (forall i, i < length m -> nthb m i = true -> (0 <= renum m i < Z.of_nat (count_true m))%Z)
  /\ (forall p, p < count_true m -> exists i, i < length m /\ nthb m i = true /\ renum m i = Z.of_nat p)
  /\ (forall X (d : X) (xs : list X) i, length xs = length m -> i < length m -> nthb m i = true ->
        nth (Z.to_nat (renum m i)) (select m xs) d = nth i xs d)
  /\ (forall X (xs : list X), length xs = length m -> length (select m xs) = count_true m).
Proof.
  intros m. split; [|split; [|split; [|split]]].
  - intros i j Hij Hj Hi Hmj. rewrite !renum_rank by auto. apply Nat2Z.inj_lt. now apply rank_lt.
  - intros i Hi Hm. now apply renum_keeps_row.
  - intros p Hp. destruct (rank_onto m p Hp) as [i [Hi [Hm E]]]. exists i. rewrite renum_rank, E by auto. auto.
  - intros X d xs i Hl Hi Hm. now apply renum_keeps_row.
  - intros. now apply select_length.
Qed.
Print Assumptions reduce_is_order_preserving_bijection.

(* index_active lookups of a table with pairwise different pit labels: label -> new position or -1,
   other labels untouched *)
Theorem index_active_lookup_correct : forall mask elm f t lookup,
  f <= t -> t <= length mask -> length elm = length mask -> NoDup (slice f t elm) ->
  (forall k, k < t - f ->
     sget (index_active mask elm f t lookup) (nth (f + k) elm 0%Z) =
     if nthb mask (f + k) then renum mask (f + k) else (-1)%Z)
  /\ (forall l, ~ In l (slice f t elm) -> sget (index_active mask elm f t lookup) l = sget lookup l).
Proof.
  intros mask elm f t lookup Hft Ht Hl Hnd. unfold index_active.
  set (con := slice f t mask). set (el := slice f t elm).
  rewrite <- !C06.Proofs.select_map. set (new := map _ (slice f t (cumsum_b 0 mask))). rewrite <- C06.Proofs.select_combine.
  (* both assignments are masked writes of rows whose keys are the pairwise different labels el *)
  assert (K1 : map fst (map (fun l => (l, -1)%Z) el) = el) by (rewrite map_map; exact (map_id el)).
  assert (K2 : map fst (combine el new) = el).
  { apply C06.Proofs.map_fst_combine. unfold el, new.
    rewrite map_length, !slice_length; rewrite ?cumsum_b_length; lia. }
  destruct (sget_swrite_select lookup (map negb con) (map (fun l => (l, -1)%Z) el)) as [A1 B1]; [now rewrite K1|].
  destruct (sget_swrite_select (swrite lookup (select (map negb con) (map (fun l => (l, -1)%Z) el)))
                               con (combine el new)) as [A2 B2]; [now rewrite K2|].
  rewrite K1 in B1. rewrite K2 in B2. split.
  - intros k Hk.
    assert (Ek : nth_error el k = Some (nth (f + k) elm 0%Z)) by (apply slice_nth_error; lia).
    assert (Ec : nth_error new k = Some (renum mask (f + k))).
    { unfold renum, new. apply (map_nth_error (fun c => (c - 1)%Z)).
      apply slice_nth_error; [|rewrite cumsum_b_length]; lia. }
    rewrite (A2 k _ _ (nth_error_combine _ _ _ _ _ Ek Ec)).
    rewrite (A1 k _ _ (map_nth_error (fun l => (l, -1)%Z) _ _ Ek)).
    rewrite nthb_map_negb by (unfold con; rewrite slice_length; lia).
    replace (nthb con k) with (nthb mask (f + k)) by (symmetry; unfold nthb; now apply slice_nth).
    now destruct (nthb mask (f + k)).
  - intros l Hin. now rewrite B2, B1.
Qed.
Print Assumptions index_active_lookup_correct.

(* from_to_active: consecutive ranges whose lengths are the marked counts of the tables; a marked row of a
   table lies inside the table's active range *)
Theorem from_to_active_partition : forall mask fts count,
  (forall tbl f t, In (tbl, (f, t)) fts -> f <= t /\ t <= length mask) ->
  map fst (from_to_active mask fts count) = map fst fts
  /\ (forall k tbl f t, nth_error fts k = Some (tbl, (f, t)) ->
        exists c, nth_error (from_to_active mask fts count) k =
                  Some (tbl, (c, (c + Z.of_nat (count_true (slice f t mask)))%Z))
                  /\ c = (count + sumz (map (fun x => Z.of_nat (count_true (slice (fst (snd x)) (snd (snd x)) mask)))
                                         (firstn k fts)))%Z).
Proof.
  intros mask. induction fts as [|[tbl [f t]] r IH]; intros count Hwf.
  - split; auto. intros [|k] ? ? ? H; discriminate.
  - destruct (IH (count + Z.of_nat (count_true (slice f t mask)))%Z) as [IH1 IH2].
    { intros; eapply Hwf; right; eauto. }
    split; [simpl; now rewrite IH1|].
    intros [|k] tbl' f' t' H; simpl in H.
    + inversion H; subst. exists count. split; [reflexivity|]. simpl. lia.
    + destruct (IH2 k tbl' f' t' H) as [c [E Ec]]. exists c. split; [exact E|].
      rewrite Ec. simpl firstn. simpl map. unfold sumz. simpl fold_right. lia.
Qed.
Print Assumptions from_to_active_partition.

Theorem marked_row_inside_active_range : forall mask f t i,
  f <= i -> i < t -> t <= length mask -> nthb mask i = true ->
  (Z.of_nat (rank mask f) <= renum mask i < Z.of_nat (rank mask f) + Z.of_nat (count_true (slice f t mask)))%Z.
Proof.
  intros mask f t i Hf Hi Ht Hm. rewrite renum_rank by auto. rewrite count_slice by lia.
  pose proof (rank_mono mask f i Hf). pose proof (rank_lt mask i t Hi Hm).
  pose proof (rank_mono mask f t ltac:(lia)). lia.
Qed.
Print Assumptions marked_row_inside_active_range.

(* the np.all shortcut (copy_lookups, no renumbering) equals the general path *)
Theorem reduce_all_true_is_copy : forall m, all_true m = true ->
  (forall i, i < length m -> renum m i = Z.of_nat i)
  /\ (forall X (xs : list X), length xs = length m -> select m xs = xs).
Proof. exact ProofsReduce.reduce_all_true_is_copy. Qed.
Print Assumptions reduce_all_true_is_copy.

Theorem reduce_from_to_paths_agree : forall nmask bmask bs,
  (forall b, In b bs -> b_from b < length nmask /\ b_to b < length nmask) ->
  reduce_ft nmask bmask bs = map (fun b => (renum nmask (b_from b), renum nmask (b_to b))) (select bmask bs).
Proof. intros nmask bmask bs Hwf. apply reduce_ft_renum. intros b Hb. apply Hwf. eapply C06.Proofs.select_in; eauto. Qed.
Print Assumptions reduce_from_to_paths_agree.

(* a branch kept by the search keeps both ends: the renumbered FROM_NODE / TO_NODE are inside the active node
   pit and denote the same node rows as before *)
Theorem reduce_keeps_branch_ends : forall n bs nact slack,
  (forall b, In b bs -> b_from b < n /\ b_to b < n) ->
  let nmask := hnc n bs nact slack in
  forall b X (d : X) (nodes : list X), In b bs -> bmark n bs nact slack b = true -> length nodes = n ->
    (0 <= renum nmask (b_from b) < Z.of_nat (count_true nmask))%Z
    /\ (0 <= renum nmask (b_to b) < Z.of_nat (count_true nmask))%Z
    /\ nth (Z.to_nat (renum nmask (b_from b))) (select nmask nodes) d = nth (b_from b) nodes d
    /\ nth (Z.to_nat (renum nmask (b_to b))) (select nmask nodes) d = nth (b_to b) nodes d.
Proof. exact ProofsReduce.reduce_keeps_branch_ends. Qed.
Print Assumptions reduce_keeps_branch_ends.

(* reduced pit = pit of the net with the unmarked rows deleted (junction table + any number of one-section
   branch tables; structural columns FROM_NODE, TO_NODE, ACTIVE, DIRECTED, FLOW_RETURN_CONNECT) *)
Theorem reduce_eq_delete : forall js tabs nmask bmask,
  NoDup js -> length nmask = length js -> length bmask = length (concat tabs) ->
  (forall r, In r (select bmask (concat tabs)) ->
     exists kf kt, kf < length js /\ kt < length js /\ nthb nmask kf = true /\ nthb nmask kt = true
                   /\ r_from r = nth kf js 0%Z /\ r_to r = nth kt js 0%Z) ->
  map ends (mk_branches (select nmask js) (select_tabs bmask tabs)) =
  map (fun bf => (fst (snd bf), snd (snd bf), (b_active (fst bf), b_directed (fst bf), b_frc (fst bf))))
      (combine (select bmask (mk_branches js tabs)) (reduce_ft nmask bmask (mk_branches js tabs))).
Proof. exact ProofsReduce.reduce_eq_delete. Qed.
Print Assumptions reduce_eq_delete.

(* write-back: NaN exactly at the unmarked positions, the active value of the same row elsewhere *)
Theorem writeback_nan_pattern : forall V (d : V) mask (active : list V), length active = count_true mask ->
  length (writeback mask active) = length mask /\
  forall i, i < length mask ->
    nth i (writeback mask active) None = if nthb mask i then Some (nth (rank mask i) active d) else None.
Proof. intros V d mask. exact (ProofsReduce.writeback_nan_pattern d mask). Qed.
Print Assumptions writeback_nan_pattern.

(* _restart_connectivity_check: it reports "nothing changed" iff the ACTIVE columns of the active pits equal the
   reduced pit columns; immediately after a restart a second check reports nothing to do and changes nothing; the
   write-back followed by the reduction returns exactly the change a component made (for any re-identification) *)
Theorem restart_check_idempotent : forall ident s,
  restart_check ident (snd (restart_check ident s)) = (false, snd (restart_check ident s)).
Proof. exact ProofsReduce.restart_check_idempotent. Qed.
Print Assumptions restart_check_idempotent.

Theorem restart_check_false_iff : forall ident s,
  fst (restart_check ident s) = false <->
  select (r_mn s) (r_pn s) = r_an s /\ select (r_mb s) (r_pb s) = r_ab s.
Proof.
  intros ident s. unfold restart_check.
  destruct (bl_eqb (select (r_mn s) (r_pn s)) (r_an s) && bl_eqb (select (r_mb s) (r_pb s)) (r_ab s)) eqn:E; simpl.
  - apply andb_true_iff in E. destruct E. split; auto using bl_eqb_eq.
  - split; [discriminate|]. intros [H1 H2]. now rewrite H1, H2, !bl_eqb_refl in E.
Qed.
Print Assumptions restart_check_false_iff.

Theorem restart_writeback_roundtrip : forall (s : rstate),
  length (r_pn s) = length (r_mn s) -> length (r_an s) = count_true (r_mn s) ->
  select (r_mn s) (scatter (r_mn s) (r_an s) (r_pn s)) = r_an s.
Proof. intros. now apply select_scatter. Qed.
Print Assumptions restart_writeback_roundtrip.

(* non-vacuity: a meshed net with a parallel branch, an outage, a directed branch against the supply direction,
   a flow-return-connect branch to an otherwise unconnected node, and an island *)
Definition ex_bs : list branch :=
  [ {| b_from := 0; b_to := 1; b_active := true; b_directed := false; b_frc := false |};
    {| b_from := 1; b_to := 2; b_active := true; b_directed := false; b_frc := false |};
    {| b_from := 0; b_to := 2; b_active := true; b_directed := false; b_frc := false |};
    {| b_from := 1; b_to := 2; b_active := false; b_directed := false; b_frc := false |};
    {| b_from := 3; b_to := 2; b_active := true; b_directed := true; b_frc := false |};
    {| b_from := 2; b_to := 4; b_active := true; b_directed := false; b_frc := true |};
    {| b_from := 5; b_to := 6; b_active := true; b_directed := false; b_frc := false |};
    {| b_from := 2; b_to := 1; b_active := true; b_directed := false; b_frc := true |} ].

Example connectivity_example :
  (forall b, In b ex_bs -> b_from b < 7 /\ b_to b < 7)
  /\ identify_hyd true 7 ex_bs [true; true; true; true; true; true; true] [true; false; false; false; false; false; false]
     = Some ([true; true; true; false; false; false; false], [true; true; true; false; false; false; false; true])
  /\ reduce_ft [true; true; true; false; false; false; false] [true; true; true; false; false; false; false; true] ex_bs
     = [(0, 1); (1, 2); (0, 2); (2, 1)]%Z
  /\ identify_hyd true 7 ex_bs [false; true; true; true; true; true; true] [true; false; false; false; false; false; false]
     = None.
Proof.
  split; [|vm_compute; auto].
  intros b Hb. simpl in Hb. repeat (destruct Hb as [<-|Hb]; [simpl; lia|]). inversion Hb.
Qed.

(* non-vacuity of the reduction theorems: an index_active lookup over sparse unsorted labels, write-back, the deleted
   net of a junction table with two one-section branch tables (hypotheses of reduce_eq_delete hold: kept rows refer to
   kept junctions), a restart after a component switched a row off *)
Definition ex_js : list Z := [70; 30; 50; 10]%Z.
Definition ex_tabs : list (list brow) :=
  [ [ {| r_label := 5; r_from := 70; r_to := 30; r_active := true; r_directed := false; r_frc := false |};
      {| r_label := 2; r_from := 30; r_to := 50; r_active := true; r_directed := false; r_frc := false |} ];
    [ {| r_label := 0; r_from := 10; r_to := 70; r_active := true; r_directed := true; r_frc := false |};
      {| r_label := 9; r_from := 70; r_to := 10; r_active := true; r_directed := false; r_frc := true |} ] ]%Z.

Example reduction_examples :
  (let lu := index_active [true; false; true; true] ex_js 0 4 (mk_index_lookup ex_js 0) in
   (sget lu 70, sget lu 30, sget lu 50, sget lu 10, sget lu 40) = (0, -1, 1, 2, -1))%Z
  /\ writeback [true; false; true; true] [11; 12; 13]%Z = [Some 11; None; Some 12; Some 13]%Z
  /\ from_to_active [true; false; true; true; true] [(0, (0, 2)); (1, (2, 5))] 0%Z = [(0, (0%Z, 1%Z)); (1, (1%Z, 4%Z))]
  /\ (let nmask := [true; false; true; true] in let bmask := [false; false; true; true] in
      NoDup ex_js /\
      map ends (mk_branches (select nmask ex_js) (select_tabs bmask ex_tabs)) =
      map (fun bf => (fst (snd bf), snd (snd bf), (b_active (fst bf), b_directed (fst bf), b_frc (fst bf))))
          (combine (select bmask (mk_branches ex_js ex_tabs)) (reduce_ft nmask bmask (mk_branches ex_js ex_tabs))))
  /\ fst (restart_check (fun pn pb => (pn, pb))
            {| r_pn := [true; true]; r_pb := [true; true; true]; r_mn := [true; true]; r_mb := [true; true; true];
               r_an := [true; true]; r_ab := [true; false; true] |}) = true.
Proof.
  repeat split; try (vm_compute; reflexivity).
  unfold ex_js. repeat constructor; simpl; intuition lia.
Qed.
