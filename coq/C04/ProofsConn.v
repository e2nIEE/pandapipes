(* C04 - the connectivity search marks exactly the reachable nodes (any node count, any branch list). *)
From Coq Require Import PeanoNat List Bool Lia.
From PP Require Import C06.Model C04.Model.
Import ListNotations.
Open Scope nat_scope.

Lemma nthb_true_lt r i : nthb r i = true -> i < length r.
Proof.
  unfold nthb. intros H. destruct (Nat.lt_ge_cases i (length r)); auto.
  rewrite nth_overflow in H by lia. discriminate.
Qed.

Lemma nth_map_seq {X} (f : nat -> X) n i d : i < n -> nth i (map f (seq 0 n)) d = f i.
Proof.
  intros H. rewrite (nth_indep _ d (f 0)) by (now rewrite map_length, seq_length).
  rewrite map_nth, seq_nth by auto. reflexivity.
Qed.

Lemma all_false_iff l : all_false l = true <-> forall i, nthb l i = false.
Proof.
  unfold all_false. rewrite forallb_forall. split.
  - intros H i. unfold nthb. destruct (Nat.lt_ge_cases i (length l)).
    + specialize (H _ (nth_In l false H0)). now apply negb_true_iff in H.
    + now rewrite nth_overflow.
  - intros H x Hx. apply In_nth with (d := false) in Hx. destruct Hx as [i [_ <-]].
    apply negb_true_iff. apply H.
Qed.

Lemma cnt_le_length r : count_true r <= length r.
Proof. unfold count_true. induction r as [|[] r IH]; simpl; lia. Qed.

Lemma cnt_mono r : forall r', length r = length r' ->
  (forall i, nthb r i = true -> nthb r' i = true) -> r = r' \/ count_true r < count_true r'.
Proof.
  unfold count_true.
  induction r as [|a r IH]; intros [|b r'] Hl Hsub; try discriminate; [now left|].
  assert (Hab : a = true -> b = true) by exact (Hsub 0).
  destruct (IH r') as [->|Hlt]; [simpl in Hl; lia | exact (fun i => Hsub (S i)) | |].
  - destruct a, b; simpl; [now left | discriminate (Hab eq_refl) | right; lia | now left].
  - right. destruct a, b; simpl; lia.
Qed.

Section Conn.
  Variable n : nat.
  Variable edges : list (nat * nat).
  Hypothesis edges_wf : forall f t, In (f, t) edges -> t < n.
  Variable init : list bool.
  Hypothesis init_len : length init = n.

  Notation stp := (step n edges).

  Lemma step_length r : length (stp r) = n.
  Proof. unfold step. now rewrite map_length, seq_length. Qed.

  Lemma step_spec r i : i < n ->
    (nthb (stp r) i = true <-> nthb r i = true \/ exists f, In (f, i) edges /\ nthb r f = true).
  Proof.
    intros H. unfold nthb at 1, step. rewrite nth_map_seq by auto.
    rewrite orb_true_iff, existsb_exists. split.
    - intros [H1|[[f t] [Hin He]]]; auto. simpl in He. apply andb_true_iff in He. destruct He as [Hf Ht].
      apply Nat.eqb_eq in Ht. subst. right. eauto.
    - intros [H1|[f [Hin Hf]]]; auto. right. exists (f, i). simpl. now rewrite Hf, Nat.eqb_refl.
  Qed.

  Definition rk (k : nat) : list bool := Nat.iter k stp init.

  Lemma rk_length k : length (rk k) = n.
  Proof. destruct k; simpl; auto. apply step_length. Qed.

  Lemma rk_mono k i : nthb (rk k) i = true -> nthb (rk (S k)) i = true.
  Proof.
    intros H. pose proof (nthb_true_lt _ _ H) as Hi. rewrite rk_length in Hi.
    simpl. apply step_spec; auto.
  Qed.

  (* a wave that is not yet a fixpoint marks a new node, and there are only n nodes *)
  Theorem closure_fix : stp (closure n edges init) = closure n edges init.
  Proof.
    assert (G : forall k, stp (rk k) = rk k \/ count_true (rk k) < count_true (rk (S k))).
    { intros k. destruct (cnt_mono (rk k) (rk (S k))) as [E|H]; auto using rk_mono.
      now rewrite !rk_length. }
    assert (P : forall k, stp (rk k) = rk k \/ k < count_true (rk (S k))).
    { induction k as [|k [E|H]].
      - destruct (G 0); auto. right. lia.
      - left. change (rk (S k)) with (stp (rk k)). now rewrite !E.
      - destruct (G (S k)); auto. right. lia. }
    destruct (P n) as [E|H]; [exact E|].
    pose proof (cnt_le_length (rk (S n))). rewrite rk_length in *. lia.
  Qed.

  Inductive Reach : nat -> Prop :=
  | Reach_init i : nthb init i = true -> Reach i
  | Reach_step f t : In (f, t) edges -> Reach f -> Reach t.

  Lemma rk_sound k : forall i, nthb (rk k) i = true -> Reach i.
  Proof.
    induction k as [|k IH]; intros i H; [now constructor|].
    pose proof (nthb_true_lt _ _ H) as Hi. rewrite rk_length in Hi.
    simpl in H. apply step_spec in H; auto. destruct H as [H|[f [Hin Hf]]]; auto.
    eapply Reach_step; eauto.
  Qed.

  Lemma init_in_rk k i : nthb init i = true -> nthb (rk k) i = true.
  Proof. intros H. induction k; auto. now apply rk_mono. Qed.

  Theorem closure_iff_reach i : nthb (closure n edges init) i = true <-> Reach i.
  Proof.
    split.
    - apply rk_sound.
    - induction 1 as [i Hi|f t Hin Hr IH].
      + now apply init_in_rk.
      + rewrite <- closure_fix. apply step_spec; [eapply edges_wf; eauto|]. right. eauto.
  Qed.
End Conn.

Lemma combine_map_r {X Y} (g : X -> Y) (xs : list X) : combine xs (map g xs) = map (fun x => (x, g x)) xs.
Proof. induction xs; simpl; auto. now f_equal. Qed.

Lemma map2_map {X Y W} (f : X -> Y -> W) (g : X -> Y) (xs : list X) :
  map2 f xs (map g xs) = map (fun x => f x (g x)) xs.
Proof. unfold map2. now rewrite combine_map_r, map_map. Qed.

Lemma edges_of_in bs lookup f t : In (f, t) (edges_of bs lookup) <->
  exists b, In (b, true) (combine bs lookup) /\
            ((b_from b, b_to b) = (f, t) \/ b_directed b = false /\ (b_to b, b_from b) = (f, t)).
Proof.
  unfold edges_of. rewrite in_flat_map. split.
  - intros [[b a] [Hb Hin]]. simpl in Hin. destruct a; [|inversion Hin]. exists b. split; auto.
    destruct Hin as [E|Hin]; [now left|].
    destruct (b_directed b); [inversion Hin|]. destruct Hin as [E|[]]. now right.
  - intros [b [Hb Hc]]. exists (b, true). split; auto. simpl.
    destruct Hc as [E|[Hd E]]; [now left|]. right. rewrite Hd. now left.
Qed.

Section Hyd.
  Variable n : nat.
  Variable bs : list branch.
  Variables nact slack : list bool.
  Hypothesis bs_wf : forall b, In b bs -> b_from b < n /\ b_to b < n.

  (* the property's notion of "supplied" on the pit graph *)
  Inductive HReach : nat -> Prop :=
  | HR_start i : i < n -> nthb slack i = true -> nthb nact i = true -> HReach i
  | HR_fwd b : In b bs -> b_active b = true -> b_frc b = false -> HReach (b_from b) -> HReach (b_to b)
  | HR_bwd b : In b bs -> b_active b = true -> b_frc b = false -> b_directed b = false ->
               HReach (b_to b) -> HReach (b_from b).

  Definition look (b : branch) : bool := b_active b && negb (b_frc b).
  Definition hedges : list (nat * nat) := edges_of bs (map look bs).
  Definition hinit : list bool := map (fun i => nthb slack i && nthb nact i) (seq 0 n).
  Definition hnc : list bool := closure n hedges hinit.

  Lemma hinit_len : length hinit = n.
  Proof. unfold hinit. now rewrite map_length, seq_length. Qed.

  Lemma hinit_nth i : nthb hinit i = true <-> i < n /\ nthb slack i = true /\ nthb nact i = true.
  Proof.
    split.
    - intros H. pose proof (nthb_true_lt _ _ H) as Hi. rewrite hinit_len in Hi.
      unfold nthb at 1, hinit in H. rewrite nth_map_seq in H by auto. apply andb_true_iff in H. tauto.
    - intros [Hi [H1 H2]]. unfold nthb at 1, hinit. rewrite nth_map_seq by auto. now rewrite H1, H2.
  Qed.

  Lemma hnc_length : length hnc = n.
  Proof. apply rk_length, hinit_len. Qed.

  Lemma edges_of_wf lookup f t : In (f, t) (edges_of bs lookup) -> t < n.
  Proof.
    intros H. apply edges_of_in in H. destruct H as [b [Hb [E|[_ E]]]];
      apply in_combine_l in Hb; inversion E; subst; now apply bs_wf.
  Qed.

  (* _connectivity with any look-up: the hydraulic and the heat-transfer search differ only in it *)
  Theorem connectivity_nodes_iff_reach lookup i :
    nthb (fst (connectivity n bs lookup nact slack)) i = true <-> Reach (edges_of bs lookup) hinit i.
  Proof.
    unfold connectivity. simpl fst. apply closure_iff_reach.
    - apply edges_of_wf.
    - apply hinit_len.
  Qed.

  Lemma look_true b : look b = true <-> b_active b = true /\ b_frc b = false.
  Proof. unfold look. rewrite andb_true_iff, negb_true_iff. tauto. Qed.

  Lemma hedges_in f t : In (f, t) hedges <->
    exists b, In b bs /\ look b = true /\
              ((b_from b, b_to b) = (f, t) \/ b_directed b = false /\ (b_to b, b_from b) = (f, t)).
  Proof.
    unfold hedges. rewrite edges_of_in, combine_map_r. split; intros [b [H Hc]]; exists b.
    - apply in_map_iff in H. destruct H as [b' [E Hb]]. inversion E; subst. tauto.
    - destruct Hc as [Hl Hc]. split; auto. apply in_map_iff. exists b. now rewrite Hl.
  Qed.

  Lemma reach_iff_hreach i : Reach hedges hinit i <-> HReach i.
  Proof.
    split.
    - induction 1 as [i Hi|f t Hin Hr IH].
      + apply hinit_nth in Hi. destruct Hi as [? [? ?]]. now constructor.
      + apply hedges_in in Hin. destruct Hin as [b [Hb [Hl [E|[Hd E]]]]]; inversion E; subst;
          apply look_true in Hl; destruct Hl.
        * now apply HR_fwd.
        * now apply HR_bwd.
    - induction 1 as [i Hi H1 H2|b Hb Ha Hf Hr IH|b Hb Ha Hf Hd Hr IH].
      + apply Reach_init. apply hinit_nth. auto.
      + eapply Reach_step; [|exact IH]. apply hedges_in. exists b. rewrite look_true. auto.
      + eapply Reach_step; [|exact IH]. apply hedges_in. exists b. rewrite look_true. auto.
  Qed.

  Theorem hnc_iff_hreach i : nthb hnc i = true <-> HReach i.
  Proof.
    rewrite <- reach_iff_hreach. exact (connectivity_nodes_iff_reach (map look bs) i).
  Qed.

  (* the mark of one branch as perform_connectivity_search computes it *)
  Definition bmark (b : branch) : bool :=
    if b_frc b && (nthb hnc (b_from b) && nthb hnc (b_to b) && b_active b) then true
    else look b && nthb hnc (b_from b).

  Lemma search_hyd_eq :
    search_hyd n bs (map b_active bs) nact slack = (hnc, map bmark bs).
  Proof.
    unfold search_hyd, connectivity. rewrite map2_map. fold look. fold hedges hinit hnc.
    rewrite map2_map, map2_map. reflexivity.
  Qed.

  Theorem bmark_iff b :
    bmark b = true <->
    b_active b = true /\ HReach (b_from b) /\ (b_frc b = true -> HReach (b_to b)).
  Proof.
    unfold bmark, look. rewrite <- !hnc_iff_hreach.
    destruct (b_frc b), (b_active b), (nthb hnc (b_from b)), (nthb hnc (b_to b)); simpl; intuition congruence.
  Qed.

  (* both ends of a marked branch are marked nodes: the reduced branch never points outside the active pit *)
  Theorem bmark_ends b : In b bs -> bmark b = true -> nthb hnc (b_from b) = true /\ nthb hnc (b_to b) = true.
  Proof.
    intros Hb Hm. apply bmark_iff in Hm. destruct Hm as [Ha [Hf Ht]].
    rewrite !hnc_iff_hreach. split; auto.
    destruct (b_frc b) eqn:E; auto. now apply HR_fwd.
  Qed.

  (* no supplied junction (incl. the empty net): the identification raises; otherwise it returns the masks *)
  Lemma identify_hyd_eq :
    identify_hyd true n bs nact slack = if all_false hnc then None else Some (hnc, map bmark bs).
  Proof. unfold identify_hyd. now rewrite search_hyd_eq. Qed.

  Lemma hreach_start i : HReach i -> exists j, j < n /\ nthb slack j = true /\ nthb nact j = true.
  Proof. induction 1; eauto. Qed.

  Lemma hnc_all_false_iff :
    all_false hnc = true <-> (forall i, i < n -> nthb slack i && nthb nact i = false).
  Proof.
    rewrite all_false_iff. split.
    - intros H i Hi. destruct (nthb slack i && nthb nact i) eqn:E; auto.
      apply andb_true_iff in E. destruct E. rewrite <- (H i). symmetry. apply hnc_iff_hreach. now constructor.
    - intros H i. destruct (nthb hnc i) eqn:E; auto.
      apply hnc_iff_hreach, hreach_start in E. destruct E as [j [Hj [H1 H2]]].
      specialize (H j Hj). now rewrite H1, H2 in H.
  Qed.

  Theorem identify_returns_masks :
    (exists i, i < n /\ nthb slack i = true /\ nthb nact i = true) ->
    identify_hyd true n bs nact slack = Some (hnc, map bmark bs).
  Proof.
    intros [i [Hi [H1 H2]]]. rewrite identify_hyd_eq. destruct (all_false hnc) eqn:E; auto.
    rewrite hnc_all_false_iff in E. specialize (E i Hi). now rewrite H1, H2 in E.
  Qed.
End Hyd.

Section Heat.
  Variable n : nat.
  Variable bs : list branch.
  Variables bact nact tslack : list bool.

  (* start: T / GE typed nodes that are hydraulically active; edges: hydraulically active branches, flow direction
     ignored except for DIRECTED ones *)
  Definition tedges := edges_of bs bact.
  Definition tinit : list bool := map (fun i => nthb tslack i && nthb nact i) (seq 0 n).
End Heat.
