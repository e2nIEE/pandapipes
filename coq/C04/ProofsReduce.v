(* C04 - the reduction to the active tables: renumbering is an order-preserving bijection that keeps rows and
   branch ends, index_active lookups, the np.all shortcut, write-back, reduced pit = pit of the deleted net, the
   restart check. *)
From Coq Require Import ZArith List Bool Lia.
From PP Require Import C06.Model C06.Proofs C04.Model C04.ProofsConn.
Import ListNotations.
Open Scope nat_scope.

(* number of marked positions before i *)
Definition rank (m : list bool) (i : nat) : nat := count_true (firstn i m).

Lemma count_true_cons b m : count_true (b :: m) = (if b then 1 else 0) + count_true m.
Proof. unfold count_true. destruct b; simpl; lia. Qed.

Lemma rank_cons b m i : rank (b :: m) (S i) = (if b then 1 else 0) + rank m i.
Proof. unfold rank. simpl firstn. apply count_true_cons. Qed.

Lemma rank_S m : forall i, i < length m -> rank m (S i) = rank m i + (if nthb m i then 1 else 0).
Proof.
  induction m as [|b m IH]; intros i H; simpl in H; [lia|].
  destruct i; [destruct b; reflexivity|].
  rewrite !rank_cons, IH by lia. change (nthb (b :: m) (S i)) with (nthb m i). lia.
Qed.

Lemma rank_mono m : forall i j, i <= j -> rank m i <= rank m j.
Proof.
  induction m as [|b m IH]; intros i j H.
  - unfold rank. now rewrite !firstn_nil.
  - destruct i; [apply Nat.le_0_l|]. destruct j; [lia|].
    rewrite !rank_cons. specialize (IH i j). lia.
Qed.

Lemma rank_all m i : length m <= i -> rank m i = count_true m.
Proof. intros H. unfold rank. now rewrite firstn_all2. Qed.

Lemma rank_lt m i j : i < j -> nthb m i = true -> rank m i < rank m j.
Proof.
  intros Hij Hm. pose proof (rank_S m i (nthb_true_lt m i Hm)) as E. rewrite Hm in E.
  pose proof (rank_mono m (S i) j Hij). lia.
Qed.

Lemma rank_lt_count m i : nthb m i = true -> rank m i < count_true m.
Proof.
  intros Hm. rewrite <- (rank_all m (length m)) by lia. apply rank_lt; [|exact Hm]. now apply nthb_true_lt.
Qed.

Lemma rank_onto m : forall p, p < count_true m -> exists i, i < length m /\ nthb m i = true /\ rank m i = p.
Proof.
  induction m as [|b m IH]; intros p Hp; [now apply Nat.nlt_0_r in Hp|].
  rewrite count_true_cons in Hp.
  assert (Hs : forall q, q < count_true m ->
            exists i, i < length (b :: m) /\ nthb (b :: m) i = true /\ rank (b :: m) i = (if b then 1 else 0) + q).
  { intros q Hq. destruct (IH q Hq) as [i [Hi [Hm E]]]. exists (S i).
    rewrite rank_cons, E. simpl. repeat split; auto; lia. }
  destruct b; [destruct p as [|p]; [exists 0; simpl; repeat split; lia|]|]; apply Hs; lia.
Qed.

Lemma cumsum_b_length m : forall a, length (cumsum_b a m) = length m.
Proof. induction m; simpl; intros; auto. Qed.

Lemma cumsum_b_nth m : forall a i, i < length m ->
  nth i (cumsum_b a m) 0%Z = (a + Z.of_nat (rank m (S i)))%Z.
Proof.
  induction m as [|b m IH]; intros a i H; simpl in H; [lia|].
  destruct i; [destruct b; reflexivity|].
  rewrite rank_cons. simpl. rewrite IH by lia. destruct b; lia.
Qed.

Lemma renum_rank m i : nthb m i = true -> renum m i = Z.of_nat (rank m i).
Proof.
  intros Hm. pose proof (nthb_true_lt m i Hm) as H.
  unfold renum. rewrite cumsum_b_nth by auto. rewrite rank_S by auto. rewrite Hm. lia.
Qed.

Lemma select_length {X} m (xs : list X) : length xs = length m -> length (select m xs) = count_true m.
Proof.
  revert xs. induction m as [|b m IH]; intros [|x xs] H; simpl in H; try discriminate; auto.
  simpl. rewrite count_true_cons. destruct b; simpl; rewrite IH by lia; lia.
Qed.

Lemma select_nth {X} (d : X) m : forall (xs : list X) i, length xs = length m -> nthb m i = true ->
  nth (rank m i) (select m xs) d = nth i xs d.
Proof.
  unfold nthb. induction m as [|b m IH]; intros xs i Hl Hm; [destruct i; discriminate|].
  destruct xs as [|x xs]; [discriminate|]. apply eq_add_S in Hl.
  destruct i; simpl in Hm; [now subst b|].
  rewrite rank_cons. destruct b; simpl; now apply IH.
Qed.

Lemma select_app {X} m1 m2 (a b : list X) : length m1 = length a ->
  select (m1 ++ m2) (a ++ b) = select m1 a ++ select m2 b.
Proof.
  revert a. induction m1 as [|x m1 IH]; intros [|y a] H; simpl in *; try discriminate; auto.
  destruct x; simpl; rewrite IH by lia; auto.
Qed.

Lemma select_in_iff {X} m : forall (xs : list X) x,
  In x (select m xs) <-> exists k, nthb m k = true /\ nth_error xs k = Some x.
Proof.
  induction m as [|b m IH]; intros xs x.
  - simpl. split; [tauto|]. intros [k [H _]]. destruct k; discriminate.
  - destruct xs as [|y xs].
    { simpl. split; [tauto|]. intros [k [_ H]]. destruct k; discriminate. }
    assert (Hc : In x (select (b :: m) (y :: xs)) <-> (b = true /\ y = x) \/ In x (select m xs)).
    { simpl. destruct b; simpl; intuition congruence. }
    rewrite Hc, IH. split.
    + intros [[Hb <-]|[k H]]; [exists 0|exists (S k)]; auto.
    + intros [[|k] [Hm E]]; [left; split; [exact Hm|now inversion E]|right; exists k; auto].
Qed.

Lemma select_NoDup {X} m : forall (xs : list X), NoDup xs -> NoDup (select m xs).
Proof.
  induction m as [|b m IH]; intros [|x xs] H; simpl; try constructor.
  inversion H; subst. destruct b; auto. constructor; auto. intro Hin. apply select_in in Hin. contradiction.
Qed.

Lemma renum_keeps_row m i : nthb m i = true ->
  (0 <= renum m i < Z.of_nat (count_true m))%Z
  /\ forall X (d : X) (xs : list X), length xs = length m ->
       nth (Z.to_nat (renum m i)) (select m xs) d = nth i xs d.
Proof.
  intros Hm. rewrite renum_rank by auto. pose proof (rank_lt_count m i Hm). split; [lia|].
  intros X d xs Hl. rewrite Nat2Z.id. now apply select_nth.
Qed.

Lemma all_true_nth m i : all_true m = true -> i < length m -> nthb m i = true.
Proof.
  unfold all_true, nthb. rewrite forallb_forall. intros H Hi. apply H. now apply nth_In.
Qed.

Lemma all_true_rank m : all_true m = true -> forall i, i <= length m -> rank m i = i.
Proof.
  intros H. induction i; intros Hi; [reflexivity|].
  rewrite rank_S by lia. rewrite all_true_nth by (auto; lia). rewrite IHi by lia. lia.
Qed.

Lemma all_true_select {X} m (xs : list X) : all_true m = true -> length xs = length m -> select m xs = xs.
Proof.
  revert xs. induction m as [|b m IH]; intros [|x xs] H Hl; simpl in *; try discriminate; auto.
  apply andb_true_iff in H. destruct H as [-> H]. f_equal. apply IH; auto.
Qed.

(* the np.all shortcut (copy_lookups): with an all-true mask the general path is the identity *)
Theorem reduce_all_true_is_copy m : all_true m = true ->
  (forall i, i < length m -> renum m i = Z.of_nat i)
  /\ (forall X (xs : list X), length xs = length m -> select m xs = xs).
Proof.
  intros H. split.
  - intros i Hi. rewrite renum_rank by (auto using all_true_nth). now rewrite all_true_rank by (auto; lia).
  - intros. now apply all_true_select.
Qed.

(* the two code paths of reduce_pit for FROM_NODE / TO_NODE agree; only the kept branches matter *)
Lemma reduce_ft_renum nmask bmask bs :
  (forall b, In b (select bmask bs) -> b_from b < length nmask /\ b_to b < length nmask) ->
  reduce_ft nmask bmask bs = map (fun b => (renum nmask (b_from b), renum nmask (b_to b))) (select bmask bs).
Proof.
  intros Hwf. unfold reduce_ft. destruct (all_true nmask) eqn:E; auto.
  apply map_ext_in. intros b Hb. destruct (Hwf b Hb).
  destruct (reduce_all_true_is_copy nmask E) as [Hr _]. now rewrite !Hr.
Qed.

(* reduced branches keep their ends: new from/to are inside the active node pit and denote the same node rows *)
Theorem reduce_keeps_branch_ends n bs nact slack :
  (forall b, In b bs -> b_from b < n /\ b_to b < n) ->
  let nmask := hnc n bs nact slack in
  forall b X (d : X) (nodes : list X), In b bs -> bmark n bs nact slack b = true -> length nodes = n ->
    (0 <= renum nmask (b_from b) < Z.of_nat (count_true nmask))%Z
    /\ (0 <= renum nmask (b_to b) < Z.of_nat (count_true nmask))%Z
    /\ nth (Z.to_nat (renum nmask (b_from b))) (select nmask nodes) d = nth (b_from b) nodes d
    /\ nth (Z.to_nat (renum nmask (b_to b))) (select nmask nodes) d = nth (b_to b) nodes d.
Proof.
  intros Hwf nmask b X d nodes Hb Hm Hl.
  destruct (bmark_ends n bs nact slack Hwf b Hb Hm) as [Hf Ht].
  assert (Hlen : length nmask = n) by apply hnc_length.
  destruct (renum_keeps_row nmask (b_from b) Hf) as [Rf Nf].
  destruct (renum_keeps_row nmask (b_to b) Ht) as [Rt Nt].
  split; [exact Rf|]. split; [exact Rt|]. split; [apply Nf|apply Nt]; lia.
Qed.

Lemma sget_swrite a ws i :
  sget (swrite a ws) i = fold_left (fun cur w => if (fst w =? i)%Z then snd w else cur) ws (sget a i).
Proof. unfold sget, swrite. simpl. now rewrite fold_left_app. Qed.

(* a[keys[m]] = values[m] over rows (key, value) with pairwise different keys: the key of row k holds its value
   afterwards if k is marked and what it held before otherwise; so does every key outside the rows *)
Lemma sget_swrite_select a m (ws : list (Z * Z)) : NoDup (map fst ws) ->
  (forall k l v, nth_error ws k = Some (l, v) ->
     sget (swrite a (select m ws)) l = if nthb m k then v else sget a l)
  /\ (forall l, ~ In l (map fst ws) -> sget (swrite a (select m ws)) l = sget a l).
Proof.
  intros Hnd.
  assert (Hout : forall l, ~ In l (select m (map fst ws)) -> sget (swrite a (select m ws)) l = sget a l).
  { intros l H. rewrite sget_swrite. apply fold_get_notin. now rewrite <- select_map. }
  split.
  - intros k l v Hk. pose proof (map_nth_error fst _ _ Hk) as Hl. simpl in Hl.
    destruct (nthb m k) eqn:Hm.
    + rewrite sget_swrite. apply fold_get_in.
      * rewrite <- select_map. now apply select_NoDup.
      * apply select_in_iff. eauto.
    + apply Hout. intro Hin. apply select_in_iff in Hin. destruct Hin as [k' [Hm' E]].
      assert (k' = k); [|congruence].
      apply (proj1 (NoDup_nth_error _) Hnd); [apply nth_error_Some|]; congruence.
  - intros l H. apply Hout. intro Hin. apply H. eapply select_in; eauto.
Qed.

Lemma slice_length {X} f t (xs : list X) : t <= length xs -> length (slice f t xs) = t - f.
Proof. intros. unfold slice. rewrite firstn_length, skipn_length. lia. Qed.

Lemma nth_firstn_lt {X} (d : X) : forall (xs : list X) k n, k < n -> nth k (firstn n xs) d = nth k xs d.
Proof.
  induction xs as [|x xs IH]; intros k n H; [now rewrite firstn_nil|].
  destruct n; [lia|]. destruct k; simpl; auto. apply IH. lia.
Qed.

Lemma slice_nth {X} (d : X) f t (xs : list X) k : k < t - f -> nth k (slice f t xs) d = nth (f + k) xs d.
Proof.
  intros H. unfold slice. rewrite nth_firstn_lt by auto. apply nth_skipn.
Qed.

Lemma slice_nth_error {X} (d : X) f t (xs : list X) k : k < t - f -> t <= length xs ->
  nth_error (slice f t xs) k = Some (nth (f + k) xs d).
Proof.
  intros Hk Ht. rewrite <- (slice_nth d f t) by auto. apply nth_error_nth'. rewrite slice_length; lia.
Qed.

Lemma nthb_map_negb m : forall k, k < length m -> nthb (map negb m) k = negb (nthb m k).
Proof. unfold nthb. induction m; intros [|k] H; simpl in *; try lia; auto. apply IHm; lia. Qed.

Lemma nth_error_combine {X Y} : forall (xs : list X) (ys : list Y) k x y,
  nth_error xs k = Some x -> nth_error ys k = Some y -> nth_error (combine xs ys) k = Some (x, y).
Proof.
  induction xs as [|a xs IH]; intros [|b ys] [|k] x y Hx Hy; try discriminate; simpl in *.
  - congruence.
  - now apply IH.
Qed.

Lemma count_slice mask f t : f <= t -> count_true (slice f t mask) = rank mask t - rank mask f.
Proof.
  intros Hft. unfold slice, rank.
  replace (firstn t mask) with (firstn f mask ++ firstn (t - f) (skipn f mask)).
  - unfold count_true. rewrite filter_app, app_length. lia.
  - rewrite <- (firstn_skipn f (firstn t mask)). f_equal.
    + rewrite firstn_firstn. f_equal. lia.
    + now rewrite skipn_firstn_comm.
Qed.

Theorem writeback_nan_pattern {V} (d : V) mask : forall (active : list V), length active = count_true mask ->
  length (writeback mask active) = length mask /\
  forall i, i < length mask ->
    nth i (writeback mask active) None = if nthb mask i then Some (nth (rank mask i) active d) else None.
Proof.
  induction mask as [|b mask IH]; intros active Hl.
  - split; auto. intros; simpl in *; lia.
  - rewrite count_true_cons in Hl. destruct b.
    + destruct active as [|v active]; [simpl in Hl; lia|].
      destruct (IH active) as [L N]; [simpl in Hl; lia|]. split; [simpl; now rewrite L|].
      intros [|i] Hi; [reflexivity|]. rewrite rank_cons. apply N. simpl in Hi. lia.
    + destruct (IH active) as [L N]; [simpl in Hl; lia|]. split; [simpl; now rewrite L|].
      intros [|i] Hi; [reflexivity|]. rewrite rank_cons. apply N. simpl in Hi. lia.
Qed.

Lemma concat_select_tabs {X} : forall (tabs : list (list X)) m, length m = length (concat tabs) ->
  concat (select_tabs m tabs) = select m (concat tabs).
Proof.
  induction tabs as [|t r IH]; intros m H; simpl.
  - destruct m; reflexivity.
  - simpl in H. rewrite app_length in H.
    transitivity (select (firstn (length t) m ++ skipn (length t) m) (t ++ concat r));
      [|now rewrite firstn_skipn].
    rewrite select_app by (rewrite firstn_length; lia). f_equal. apply IH. rewrite skipn_length. lia.
Qed.

Definition ends (b : branch) : Z * Z * (bool * bool * bool) :=
  (Z.of_nat (b_from b), Z.of_nat (b_to b), (b_active b, b_directed b, b_frc b)).

Lemma pos_deleted js nmask k : NoDup js -> length nmask = length js -> nthb nmask k = true ->
  pos_of (mk_index_lookup (select nmask js) 0) (nth k js 0%Z) = rank nmask k
  /\ pos_of (mk_index_lookup js 0) (nth k js 0%Z) = k.
Proof.
  intros Hnd Hl Hm. pose proof (nthb_true_lt nmask k Hm) as Hk. unfold pos_of. split.
  - rewrite <- (select_nth 0%Z nmask js k) by auto.
    rewrite lookup_hit.
    + simpl. now rewrite Nat2Z.id.
    + now apply select_NoDup.
    + rewrite select_length by auto. now apply rank_lt_count.
  - rewrite lookup_hit by (auto; lia). simpl. now rewrite Nat2Z.id.
Qed.

(* for a net of junctions [js] and any number of one-section branch tables: the structural branch pit of the
   net with the unmarked junction rows and the unmarked branch rows deleted IS the reduced branch pit
   (from/to renumbered by reduce_pit, flags copied), provided every kept branch row refers to kept junctions -
   which the connectivity search guarantees (bmark_ends). *)
Theorem reduce_eq_delete js tabs nmask bmask :
  NoDup js -> length nmask = length js -> length bmask = length (concat tabs) ->
  (forall r, In r (select bmask (concat tabs)) ->
     exists kf kt, kf < length js /\ kt < length js /\ nthb nmask kf = true /\ nthb nmask kt = true
                   /\ r_from r = nth kf js 0%Z /\ r_to r = nth kt js 0%Z) ->
  map ends (mk_branches (select nmask js) (select_tabs bmask tabs)) =
  map (fun bf => (fst (snd bf), snd (snd bf), (b_active (fst bf), b_directed (fst bf), b_frc (fst bf))))
      (combine (select bmask (mk_branches js tabs)) (reduce_ft nmask bmask (mk_branches js tabs))).
Proof.
  intros Hnd Hln Hlb Hrows.
  unfold mk_branches at 1. rewrite concat_select_tabs by auto.
  rewrite reduce_ft_renum; unfold mk_branches; rewrite select_map.
  - rewrite combine_map_r, !map_map. apply map_ext_in. intros r Hr. unfold ends. simpl.
    destruct (Hrows r Hr) as [kf [kt [Hkf [Hkt [Hmf [Hmt [Ef Et]]]]]]]. rewrite Ef, Et.
    destruct (pos_deleted js nmask kf Hnd Hln Hmf) as [-> ->].
    destruct (pos_deleted js nmask kt Hnd Hln Hmt) as [-> ->].
    rewrite !renum_rank by auto. reflexivity.
  - intros b Hb. apply in_map_iff in Hb. destruct Hb as [r [<- Hr]]. simpl.
    destruct (Hrows r Hr) as [kf [kt [Hkf [Hkt [Hmf [Hmt [Ef Et]]]]]]]. rewrite Ef, Et.
    destruct (pos_deleted js nmask kf Hnd Hln Hmf) as [_ ->].
    destruct (pos_deleted js nmask kt Hnd Hln Hmt) as [_ ->]. lia.
Qed.

Lemma bl_eqb_refl l : bl_eqb l l = true.
Proof. unfold bl_eqb. induction l as [|[] l IH]; simpl; auto. Qed.

Lemma bl_eqb_eq a : forall b, bl_eqb a b = true -> a = b.
Proof.
  unfold bl_eqb. induction a as [|x a IH]; intros [|y b] H; simpl in H; try discriminate; auto.
  apply andb_true_iff in H. destruct H as [H1 H2]. apply eqb_prop in H1. subst. f_equal. auto.
Qed.

Lemma select_scatter {V} (m : list bool) : forall (act full : list V),
  length full = length m -> length act = count_true m -> select m (scatter m act full) = act.
Proof.
  induction m as [|b m IH]; intros act full Hf Ha.
  - destruct act; [reflexivity|]. unfold count_true in Ha. simpl in Ha. discriminate.
  - destruct full as [|f full]; [discriminate|]. simpl in Hf. rewrite count_true_cons in Ha.
    destruct b.
    + destruct act as [|a act]; [simpl in Ha; lia|]. simpl. f_equal. apply IH; simpl in *; lia.
    + simpl. apply IH; simpl in *; lia.
Qed.

(* the check finds nothing to do when the active pits hold what the reduction of the pit gives *)
Lemma restart_check_fixed ident s :
  select (r_mn s) (r_pn s) = r_an s -> select (r_mb s) (r_pb s) = r_ab s -> restart_check ident s = (false, s).
Proof. intros E1 E2. unfold restart_check. now rewrite E1, E2, !bl_eqb_refl. Qed.

Theorem restart_check_idempotent ident s :
  restart_check ident (snd (restart_check ident s)) = (false, snd (restart_check ident s)).
Proof.
  apply restart_check_fixed; unfold restart_check; destruct (bl_eqb _ _ && bl_eqb _ _) eqn:E; simpl.
  (* nothing had changed: that is what the comparison found; restarted: the active pits have just been reduced *)
  1,3: apply andb_true_iff in E; destruct E; now apply bl_eqb_eq.
  all: reflexivity.
Qed.
