(* C14 - the property theorems.  Each is read off from the characterisations of Proofs.v (hand model,
   tied by exhaustive correspondence) or decided by computation on Gen/OptDefaults.v (regenerated
   from pipeflow_setup.py on every run). *)
From Coq Require Import String List Bool ZArith.
From PP Require Import Base.Assoc C14.Model C14.Proofs Gen.OptDefaults.
Import ListNotations.
Open Scope string_scope.

(* call > user options > defaults, for every key outside the documented couplings *)
Theorem precedence : forall nb fl d u k key,
  nodup_keys u = true -> nodup_keys k = true -> is_coupled key = false ->
  get key (resolve nb fl d u k) = prec key d u k.
Proof.
  intros nb fl d u k key Hu Hk Hc. rewrite resolve_get_uncoupled by exact Hc.
  apply merged_plain; auto using not_coupled_not_stage.
Qed.
Print Assumptions precedence.

(* `iter` sets the stage limits of its own layer only where that layer does not set them *)
Theorem iter_expansion : forall nb fl d u k key,
  nodup_keys u = true -> nodup_keys k = true -> is_stage key = true ->
  get key (resolve nb fl d u k) =
  first_some (get key k) (first_some (iter_val k)
    (first_some (get key u) (first_some (iter_val u) (get key d)))).
Proof.
  intros nb fl d u k key Hu Hk Hs. rewrite resolve_get. cbv zeta.
  (* none of the keys tested there is a stage key *)
  rewrite !(eqb_false_by is_stage key) by (rewrite Hs; reflexivity). simpl.
  rewrite merged_get by auto. rewrite !iteration_check_get, Hs.
  now destruct (get key k), (iter_val k), (get key u).
Qed.
Print Assumptions iter_expansion.

Theorem coupling_reuse_internal_data : forall nb fl d u k,
  nodup_keys u = true -> nodup_keys k = true ->
  get "reuse_internal_data" (resolve nb fl d u k) =
  if truthy_opt (prec "only_update_hydraulic_matrix" d u k)
  then prec "reuse_internal_data" d u k else Some (VBool false).
Proof.
  intros nb fl d u k Hu Hk. rewrite resolve_get. unfold truthy_at. simpl.
  rewrite !merged_plain by auto.
  destruct (prec "only_update_hydraulic_matrix" d u k) as [v|]; simpl; [destruct (truthy v)|]; reflexivity.
Qed.
Print Assumptions coupling_reuse_internal_data.

Theorem coupling_mode_all_is_sequential : forall nb fl d u k,
  nodup_keys u = true -> nodup_keys k = true ->
  get "mode" (resolve nb fl d u k) =
  match prec "mode" d u k with
  | Some (VStr s) => if String.eqb s "all" then Some (VStr "sequential") else Some (VStr s)
  | other => other end.
Proof.
  intros nb fl d u k Hu Hk. rewrite resolve_get. simpl. rewrite merged_plain by auto.
  now destruct (prec "mode" d u k) as [[| |s| |]|].
Qed.
Print Assumptions coupling_mode_all_is_sequential.

Theorem coupling_numba_fallback : forall nb fl d u k,
  nodup_keys u = true -> nodup_keys k = true ->
  get "use_numba" (resolve nb fl d u k) = if nb then prec "use_numba" d u k else Some (VBool false).
Proof.
  intros nb fl d u k Hu Hk. rewrite resolve_get. simpl. rewrite merged_plain by auto. now destruct nb.
Qed.
Print Assumptions coupling_numba_fallback.

Theorem coupling_fluid_and_removed_keys : forall nb fl d u k,
  get "fluid" (resolve nb fl d u k) = Some fl /\
  get "interactive_plotting" (resolve nb fl d u k) = None /\ get "t_start" (resolve nb fl d u k) = None.
Proof. intros. repeat split; apply resolve_get. (* on a closed key its chain of tests evaluates *) Qed.
Print Assumptions coupling_fluid_and_removed_keys.

(* unknown options are carried through and affect no other option *)
Theorem unknown_keys_pass_through : forall nb fl d u k key v other,
  nodup_keys u = true -> nodup_keys k = true ->
  get key k = None -> is_coupled key = false -> is_stage key = false -> key <> "iter" ->
  key <> "only_update_hydraulic_matrix" -> key <> other ->
  get other (resolve nb fl d u (set key v k)) = get other (resolve nb fl d u k)
  /\ get key (resolve nb fl d u (set key v k)) = Some v.
Proof.
  intros nb fl d u k key v other Hu Hk _ Hc _ Hi Ho Hne. split.
  - (* the resolved value of [other] looks at the merged dictionary at [other], "mode" and
       "only_update_hydraulic_matrix" only, and [key] is none of them *)
    rewrite !resolve_get. unfold truthy_at. cbv zeta.
    rewrite !(merged_set_other d u k key v) by (auto; intros <-; discriminate Hc). reflexivity.
  - rewrite precedence by auto using nodup_set. unfold prec. now rewrite get_set_same.
Qed.
Print Assumptions unknown_keys_pass_through.

(* set_user_pf_options history: what is stored = the latest binding of each key since the latest reset ... *)
Theorem stored_options_follow_history : forall (ops : list (bool * opts)) key,
  Forall (fun op => nodup_keys (snd op) = true) ops ->
  get key (set_user_seq ops []) = latest key (rev ops).
Proof.
  induction ops as [|op ops IH] using rev_ind; intros key H.
  - reflexivity.
  - apply Forall_app in H. destruct H as [Hops Hop]. inversion Hop as [|? ? Hkw _]; subst.
    rewrite set_user_seq_snoc, rev_app_distr. destruct op as [reset kw]. simpl in *.
    rewrite set_user_get by exact Hkw. now rewrite IH by exact Hops.
Qed.
Print Assumptions stored_options_follow_history.

(* ... and the value in force after any history of set_user_pf_options calls and a pipeflow call *)
Theorem precedence_after_history : forall nb fl d (ops : list (bool * opts)) k key,
  Forall (fun op => nodup_keys (snd op) = true) ops -> nodup_keys k = true -> is_coupled key = false ->
  get key (resolve nb fl d (set_user_seq ops []) k)
  = first_some (get key k) (first_some (latest key (rev ops)) (get key d)).
Proof.
  intros nb fl d ops k key Hops Hk Hc. rewrite precedence by auto using set_user_seq_nodup.
  unfold prec. now rewrite stored_options_follow_history.
Qed.
Print Assumptions precedence_after_history.

(* the documented default of every documented option is the default in force (generated tables) *)
Theorem defaults_match_documentation : doc_mismatches code_defaults doc_defaults = [].
Proof. vm_compute. reflexivity. Qed.
Print Assumptions defaults_match_documentation.

(* non-vacuity: the generated default table satisfies the guards and exercises the couplings *)
Example defaults_wellformed :
  nodup_keys code_defaults = true /\ length code_defaults >= 20 /\
  get "max_iter_hyd" (resolve true (VStr "water") code_defaults [("iter", VInt 3); ("max_iter_hyd", VInt 7)]
                              [("max_iter_therm", VInt 5)]) = Some (VInt 7) /\
  get "max_iter_bidirect" (resolve true (VStr "water") code_defaults [("iter", VInt 3); ("max_iter_hyd", VInt 7)]
                              [("max_iter_therm", VInt 5)]) = Some (VInt 3).
Proof. vm_compute. repeat split; auto; repeat constructor. Qed.
