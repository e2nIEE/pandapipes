(* C14 - proofs about the model of init_options (all for arbitrary layers, any keys).
   Every step of [resolve] is a point update of the dictionary; [resolve_get] composes them into the
   value of an arbitrary key, and the properties are read off from it. *)
From Coq Require Import String List Bool.
From PP Require Import Base.Assoc C14.Model.
Import ListNotations.
Open Scope string_scope.

Definition first_some {A} (a b : option A) : option A := match a with Some x => Some x | None => b end.

(* call > user > defaults *)
Definition prec (key : string) (d u k : opts) : option value :=
  first_some (get key k) (first_some (get key u) (get key d)).

(* the value `iter` contributes in a layer (None when absent or None) *)
Definition iter_val (l : opts) : option value :=
  match get "iter" l with None | Some VNone => None | Some n => Some n end.

Definition is_stage (key : string) : bool := existsb (String.eqb key) stage_keys.

Definition truthy_opt (v : option value) : bool := match v with Some x => truthy x | None => false end.

(* one step of the loop of _iteration_check: `if k0 not in l: l[k0] = n` *)
Lemma get_set_default (n : value) key k0 (l : opts) :
  get key (if mem k0 l then l else set k0 n l)
  = if String.eqb key k0 then first_some (get key l) (Some n) else get key l.
Proof.
  unfold mem. destruct (String.eqb_spec key k0) as [->|N].
  - destruct (get k0 l) eqn:G; [exact G | apply get_set_same].
  - destruct (get k0 l); [reflexivity | now apply get_set_other].
Qed.

Lemma fold_stage_get (n : value) key (ks : list string) (l : opts) :
  get key (fold_left (fun acc k0 => if mem k0 acc then acc else set k0 n acc) ks l)
  = if existsb (String.eqb key) ks then first_some (get key l) (Some n) else get key l.
Proof.
  revert l. induction ks as [|k0 ks IH]; intros l; simpl; [reflexivity|].
  rewrite IH, get_set_default. destruct (String.eqb key k0); simpl; [|reflexivity].
  now destruct (existsb _ ks), (get key l).
Qed.

Lemma iteration_check_get key l :
  get key (iteration_check l) = if is_stage key then first_some (get key l) (iter_val l) else get key l.
Proof.
  unfold iteration_check, iter_val.
  destruct (get "iter" l) as [[]|]; try apply fold_stage_get; now destruct (is_stage key), (get key l).
Qed.

Lemma fold_stage_nodup (n : value) (ks : list string) (l : opts) :
  nodup_keys l = true ->
  nodup_keys (fold_left (fun acc k0 => if mem k0 acc then acc else set k0 n acc) ks l) = true.
Proof.
  revert l. induction ks as [|k0 ks IH]; intros l H; simpl; auto.
  apply IH. destruct (mem k0 l); auto. now apply nodup_set.
Qed.

Lemma iteration_check_nodup l : nodup_keys l = true -> nodup_keys (iteration_check l) = true.
Proof.
  intros H. unfold iteration_check. destruct (get "iter" l) as [[]|]; auto; now apply fold_stage_nodup.
Qed.

(* the dictionary before the couplings *)
Definition merged (d u k : opts) : opts := merge (merge d (iteration_check u)) (iteration_check k).

Lemma merged_get key d u k : nodup_keys u = true -> nodup_keys k = true ->
  get key (merged d u k) =
  first_some (get key (iteration_check k)) (first_some (get key (iteration_check u)) (get key d)).
Proof.
  intros Hu Hk. unfold merged.
  rewrite get_merge by now apply iteration_check_nodup.
  rewrite get_merge by now apply iteration_check_nodup.
  reflexivity.
Qed.

Lemma merged_plain key d u k : nodup_keys u = true -> nodup_keys k = true -> is_stage key = false ->
  get key (merged d u k) = prec key d u k.
Proof.
  intros Hu Hk Hs. rewrite merged_get by auto. rewrite !iteration_check_get, Hs. reflexivity.
Qed.

(* the coupling steps: two removals, then four assignments, three of them conditional *)
Definition set_unless (c : bool) (k0 : string) (v : value) (o : opts) : opts := if c then o else set k0 v o.

Lemma get_set_unless c k0 v o key :
  get key (set_unless c k0 v o) = if String.eqb key k0 && negb c then Some v else get key o.
Proof. destruct c; simpl; [now rewrite andb_false_r | rewrite andb_true_r; apply get_set]. Qed.

(* The pattern "all" of [mode_check] is a tree of matches on the bits of three characters, and
   [String.eqb _ "all"] walks the same tree: one bit at a time, a wrong bit ends both sides in [b]. *)
Lemma match_all {A} (a b : A) s :
  match s with "all" => a | _ => b end = if String.eqb s "all" then a else b.
Proof.
  do 3 (destruct s as [|[b0 b1 b2 b3 b4 b5 b6 b7] s]; [reflexivity|];
        destruct b0; try reflexivity; destruct b1; try reflexivity;
        destruct b2; try reflexivity; destruct b3; try reflexivity;
        destruct b4; try reflexivity; destruct b5; try reflexivity;
        destruct b6; try reflexivity; destruct b7; try reflexivity).
  now destruct s.
Qed.

Definition is_all (v : option value) : bool :=
  match v with Some (VStr s) => String.eqb s "all" | _ => false end.

Lemma get_mode_check o key :
  get key (mode_check o)
  = if String.eqb key "mode" && is_all (get "mode" o) then Some (VStr "sequential") else get key o.
Proof.
  unfold mode_check, is_all.
  destruct (get "mode" o) as [[| |s| |]|]; try now rewrite andb_false_r.
  rewrite match_all. destruct (String.eqb s "all"); [rewrite andb_true_r; apply get_set | now rewrite andb_false_r].
Qed.

Lemma resolve_steps nb fl d u k :
  resolve nb fl d u k =
  let o := remove "t_start" (remove "interactive_plotting" (merged d u k)) in
  let o := set_unless (truthy_at "only_update_hydraulic_matrix" o) "reuse_internal_data" (VBool false) o in
  mode_check (set "fluid" fl (set_unless nb "use_numba" (VBool false) o)).
Proof. reflexivity. Qed.

Theorem resolve_get nb fl d u k key :
  get key (resolve nb fl d u k) =
  let m := merged d u k in
  if String.eqb key "mode" && is_all (get "mode" m) then Some (VStr "sequential")
  else if String.eqb key "fluid" then Some fl
  else if String.eqb key "use_numba" && negb nb then Some (VBool false)
  else if String.eqb key "reuse_internal_data" && negb (truthy_at "only_update_hydraulic_matrix" m)
       then Some (VBool false)
  else if String.eqb key "t_start" then None
  else if String.eqb key "interactive_plotting" then None
  else get key m.
Proof.
  rewrite resolve_steps. unfold truthy_at. cbv zeta.
  rewrite get_mode_check, !get_set, !get_set_unless, !get_remove.
  (* what is left on the left are tests between two string literals ("mode" against "fluid", ...): they compute *)
  reflexivity.
Qed.

(* keys on which a boolean test differs are different *)
Lemma eqb_false_by (p : string -> bool) key k0 : p key = negb (p k0) -> String.eqb key k0 = false.
Proof. destruct (String.eqb_spec key k0) as [->|]; [now destruct (p k0) | reflexivity]. Qed.

Lemma not_coupled_not_stage key : is_coupled key = false -> is_stage key = false.
Proof.
  intros H. apply not_true_is_false. intros E. apply existsb_exists in E. destruct E as [k0 [Hin E]].
  enough (is_coupled key = true) by congruence. apply existsb_exists. exists k0. split; [|exact E].
  (* stage_keys is the tail of coupled *)
  do 6 right. exact Hin.
Qed.

Lemma resolve_get_uncoupled nb fl d u k key :
  is_coupled key = false -> get key (resolve nb fl d u k) = get key (merged d u k).
Proof.
  intros Hc. rewrite resolve_get. cbv zeta.
  rewrite !(eqb_false_by is_coupled key) by (rewrite Hc; reflexivity). reflexivity.
Qed.

(* a key bound in no layer stays unbound *)
Theorem unknown_unbound_lemma nb fl d u k key :
  nodup_keys u = true -> nodup_keys k = true -> is_coupled key = false ->
  get key d = None -> get key u = None -> get key k = None -> get key (resolve nb fl d u k) = None.
Proof.
  intros Hu Hk Hc Hd Hu' Hk'. rewrite resolve_get_uncoupled by exact Hc.
  rewrite merged_plain by auto using not_coupled_not_stage. unfold prec. now rewrite Hk', Hu', Hd.
Qed.

Lemma merged_set_other d u k key v other :
  nodup_keys k = true -> key <> "iter" -> other <> key ->
  get other (merged d u (set key v k)) = get other (merged d u k).
Proof.
  (* only the call layer changes: whatever lies below it is the same on both sides *)
  intros Hk Hi Hne. unfold merged. generalize (merge d (iteration_check u)). intros below.
  rewrite !get_merge by auto using iteration_check_nodup, nodup_set.
  rewrite !(iteration_check_get other (set _ _ _)), (iteration_check_get other k). unfold iter_val.
  rewrite !get_set_other by (auto; congruence). reflexivity.
Qed.

Lemma set_user_get user reset kw key : nodup_keys kw = true ->
  get key (set_user user reset kw) = first_some (get key kw) (if reset then None else get key user).
Proof.
  intros H. unfold set_user. rewrite get_merge by exact H. now destruct reset.
Qed.

Lemma set_user_nodup user reset kw : nodup_keys user = true -> nodup_keys (set_user user reset kw) = true.
Proof. intros H. unfold set_user. apply nodup_merge. now destruct reset. Qed.

(* the stored value of a key after a history of calls: the latest call that binds it, looking back no further
   than the latest reset *)
Fixpoint latest (key : string) (ops_rev : list (bool * opts)) : option value :=
  match ops_rev with
  | [] => None
  | (reset, kw) :: older => first_some (get key kw) (if reset then None else latest key older)
  end.

Lemma set_user_seq_snoc ops op u0 : set_user_seq (ops ++ [op]) u0 = set_user (set_user_seq ops u0) (fst op) (snd op).
Proof. unfold set_user_seq. now rewrite fold_left_app. Qed.

Lemma set_user_seq_nodup ops : nodup_keys (set_user_seq ops []) = true.
Proof.
  induction ops as [|op ops IH] using rev_ind; [reflexivity|].
  rewrite set_user_seq_snoc. now apply set_user_nodup.
Qed.
