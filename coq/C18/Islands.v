(* C18 - the components of the topology graph are the hydraulic islands of the solver:
   bridge from this model's label-level reachability (C18.Proofs.Reach over graph edges) to C04's position-level
   reachability HReach (the relation that C04.connectivity_iff_reach proves equal to the solver's search). *)
From Coq Require Import String List ZArith.
From PP Require Import C18.Model C18.Proofs.
From PP Require C04.Model C04.ProofsConn.
Import ListNotations.

Module S := PP.C04.Model.
Module SC := PP.C04.ProofsConn.

Section Islands.
  Variable es : list edge.            (* edges of the graph *)
  Variable ns : list Z.               (* its nodes = in-service junctions *)
  Variable seeds : list Z.            (* junctions with a pressure supply *)
  Variable pos : Z -> nat.            (* junction label -> position in the node pit *)
  Variable n : nat.
  Variables nact slack : list bool.   (* solver side: active nodes, pressure-fixed nodes *)

  (* the branch pit the solver sees when every graph edge is an in-service, undirected, non flow-return-connect
     branch between the same junctions (the side conditions of the property: consistent flags, no pump / compressor /
     controller whose only role is flow-return connection) *)
  Definition branch_of (e : edge) : S.branch := S.Build_branch (pos (e_u e)) (pos (e_v e)) true false false.
  Definition bs : list S.branch := map branch_of es.

  Hypothesis pos_inj : forall x y, In x ns -> In y ns -> pos x = pos y -> x = y.
  Hypothesis pos_lt : forall x, In x ns -> (pos x < n)%nat.
  Hypothesis ends_in : forall e, In e es -> In (e_u e) ns /\ In (e_v e) ns.
  Hypothesis seeds_in : forall s, In s seeds -> In s ns.
  Hypothesis nact_all : forall x, In x ns -> S.nthb nact (pos x) = true.
  Hypothesis slack_iff : forall i, S.nthb slack i = true <-> exists s, In s seeds /\ pos s = i.

  Lemma graph_to_solver v : Reach es seeds v -> In v ns /\ SC.HReach n bs nact slack (pos v).
  Proof.
    intros R. induction R as [v Hv | u v R [Hu IH] A].
    - split; [now apply seeds_in|]. apply SC.HR_start; [apply pos_lt; now apply seeds_in | | apply nact_all; now apply seeds_in].
      apply slack_iff. eauto.
    - destruct A as [e [He [[Eu Ev] | [Ev Eu]]]]; destruct (ends_in e He) as [I1 I2]; subst.
      + split; auto.
        change (pos (e_v e)) with (S.b_to (branch_of e)).
        apply SC.HR_fwd; auto. unfold bs. now apply in_map.
      + split; auto.
        change (pos (e_u e)) with (S.b_from (branch_of e)).
        apply SC.HR_bwd; auto. unfold bs. now apply in_map.
  Qed.

  Lemma solver_to_graph i : SC.HReach n bs nact slack i -> exists v, In v ns /\ pos v = i /\ Reach es seeds v.
  Proof.
    intros H. induction H as [i Hi Hs Ha | b Hb Hact Hfrc H IH | b Hb Hact Hfrc Hd H IH].
    - apply slack_iff in Hs. destruct Hs as [s [Hs E]]. exists s. repeat split; auto. now apply R_seed.
    - unfold bs in Hb. apply in_map_iff in Hb. destruct Hb as [e [<- He]]. destruct (ends_in e He) as [I1 I2].
      destruct IH as [v [Hv [E R]]]. simpl in E. apply pos_inj in E; auto. subst v.
      exists (e_v e). repeat split; auto. apply R_step with (e_u e); auto. exists e. split; auto.
    - unfold bs in Hb. apply in_map_iff in Hb. destruct Hb as [e [<- He]]. destruct (ends_in e He) as [I1 I2].
      destruct IH as [v [Hv [E R]]]. simpl in E. apply pos_inj in E; auto. subst v.
      exists (e_u e). repeat split; auto. apply R_step with (e_v e); auto. exists e. split; auto.
  Qed.

  Lemma reach_iff_hreach v : In v ns -> (Reach es seeds v <-> SC.HReach n bs nact slack (pos v)).
  Proof.
    intros Hv. split.
    - intros R. now apply graph_to_solver.
    - intros H. destruct (solver_to_graph _ H) as [w [Hw [E R]]]. apply pos_inj in E; auto. now subst.
  Qed.

  (* ... and HReach is what the solver's search marks (C04) *)
  Theorem components_eq_search v : In v ns ->
    (Reach es seeds v <-> S.nthb (fst (S.search_hyd n bs (map S.b_active bs) nact slack)) (pos v) = true).
  Proof.
    intros Hv. rewrite (reach_iff_hreach v Hv), SC.search_hyd_eq. simpl fst. symmetry. apply SC.hnc_iff_hreach.
    intros b Hb. unfold bs in Hb. apply in_map_iff in Hb. destruct Hb as [e [<- He]]. destruct (ends_in e He).
    simpl. split; now apply pos_lt.
  Qed.
End Islands.

(* the same over C04's table-level pit model:
   the branch pit [C04.mk_branches js tabs] of junction labels js and branch tables tabs HAS the shape assumed above
   when every row is in service, undirected and no flow-return connection; positions come from the solver's own
   index lookup, which is injective on js and below length js (C06.pos_of_label) *)
From PP Require C06.Model C06.ProofsExtract.
Section Pit.
  Variable js : list Z.
  Variable tabs : list (list S.brow).

  Definition pit_pos : Z -> nat := S.pos_of (PP.C06.Model.mk_index_lookup js 0%Z).
  Definition edge_of (r : S.brow) : edge := mkE (S.r_from r) (S.r_to r) EmptyString (S.r_label r) 0%Z.
  Definition pit_edges : list edge := map edge_of (concat tabs).

  Hypothesis js_unique : NoDup js.
  Hypothesis rows_plain : forall r, In r (concat tabs) ->
    S.r_active r = true /\ S.r_directed r = false /\ S.r_frc r = false.

  Lemma pit_shape : S.mk_branches js tabs = bs pit_edges pit_pos.
  Proof.
    unfold S.mk_branches, bs, pit_edges. rewrite map_map. apply map_ext_in. intros r Hr.
    destruct (rows_plain r Hr) as [A [D F]]. unfold branch_of, edge_of, pit_pos. simpl. now rewrite A, D, F.
  Qed.

  Lemma pit_pos_lt x : In x js -> (pit_pos x < length js)%nat.
  Proof.
    intros H. destruct (PP.C06.ProofsExtract.pos_of_label js x js_unique H) as [r [Hr [_ E]]].
    unfold pit_pos, S.pos_of. now rewrite E.
  Qed.

  Lemma pit_pos_inj x y : In x js -> In y js -> pit_pos x = pit_pos y -> x = y.
  Proof.
    intros Hx Hy E. destruct (PP.C06.ProofsExtract.pos_of_label js x js_unique Hx) as [r [_ [Nx Ex]]].
    destruct (PP.C06.ProofsExtract.pos_of_label js y js_unique Hy) as [r' [_ [Ny Ey]]].
    unfold pit_pos, S.pos_of in E. rewrite Ex, Ey in E. subst r'. congruence.
  Qed.
End Pit.
