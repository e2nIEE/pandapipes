(* C18 - property theorems only.  Model: C18/Model.v, tied to create_graph.py / graph_searches.py / networkx by
   exact correspondence (which also checks, inside Coq, that every computed closure / relaxation is stable). *)
From Coq Require Import String List Bool ZArith.
From PP Require Import C18.Model C18.Proofs C18.Islands.
From PP Require C04.Model C04.ProofsConn.
Import ListNotations.
Open Scope string_scope.
Open Scope Z_scope.

(* an edge with key (t, l) between u and v is in the graph exactly when row l of an included table t is
   active (or its status ignored), is not a pipe with a closed pi valve, and both ends are kept *)
Theorem edge_iff_branch_row : forall a n u v t l w,
  In (mkE u v t l w) (edges a n) <->
  exists rows r, In (t, rows) (n_tables n) /\ In r (sel_rows (f_only (flags_of (a_flags a) t)) rows) /\
    f_include (flags_of (a_flags a) t) = true /\ row_in a n t r = true /\
    u = b_from r /\ v = b_to r /\ l = b_label r /\ w = b_w r /\ kept a n u /\ kept a n v.
Proof. exact edge_in_graph_iff. Qed.
Print Assumptions edge_iff_branch_row.

(* include_X given as a list of labels: exactly the rows with those labels *)
Theorem include_list_meaning : forall o rows r,
  In r (sel_rows o rows) <-> In r rows /\ match o with None => True | Some ls => In (b_label r) ls end.
Proof. exact sel_rows_In. Qed.
Print Assumptions include_list_meaning.

Theorem row_in_meaning : forall a n t r,
  row_in a n t r = true <->
  b_pi r = false /\
  (f_respect (flags_of (a_flags a) t) = false \/ b_act r = true) /\
  ~ (t = "pipe" /\ a_rs_valves a = true /\ In (b_label r) (closed_pi_pipes n)).
Proof. exact row_in_spec. Qed.
Print Assumptions row_in_meaning.

(* such a row contributes at most one edge: keys (table, label) are unique in the multigraph *)
Theorem one_edge_per_branch : forall a n,
  NoDup (map fst (n_tables n)) -> (forall tb, In tb (n_tables n) -> NoDup (map b_label (snd tb))) ->
  (forall t ls, f_only (flags_of (a_flags a) t) = Some ls -> NoDup ls) ->
  NoDup (map key (edges a n)).
Proof.
  intros a n H1 H2 H3. unfold edges. apply NoDup_map_filter. apply keys_raw; auto.
  intros tb Htb. unfold selected_rows. apply sel_rows_NoDup; auto.
  destruct (f_only (flags_of (a_flags a) (fst tb))) eqn:E; auto. eapply H3; eauto.
Qed.
Print Assumptions one_edge_per_branch.

(* a closed valve attached to a pipe removes that pipe's edge *)
Theorem pipe_valve_closes_pipe : forall a n p vr u v w,
  a_rs_valves a = true -> In vr (rows_of n "valve") -> b_pi vr = true -> b_act vr = false -> b_to vr = p ->
  ~ In (mkE u v "pipe" p w) (edges a n).
Proof.
  intros a n p vr u v w Hv Hr Hpi Hact Hto Hin. apply edge_in_graph_iff in Hin.
  destruct Hin as [rows [r [_ [_ [_ [Hrow [_ [_ [Hl _]]]]]]]]]. apply row_in_spec in Hrow.
  destruct Hrow as [_ [_ Hn]]. apply Hn. repeat split; auto. rewrite <- Hl. apply closed_pi_In. eauto.
Qed.
Print Assumptions pipe_valve_closes_pipe.

(* a valve attached to a pipe adds no edge of its own (/repo 515c489) - every edge comes from a row that
   is not a pipe-attached valve ... *)
Theorem pipe_valve_adds_no_edge : forall a n u v t l w, In (mkE u v t l w) (edges a n) ->
  exists rows r, In (t, rows) (n_tables n) /\ In r rows /\ b_label r = l /\ b_pi r = false /\ u = b_from r /\ v = b_to r.
Proof. exact edge_row_not_pi. Qed.
Print Assumptions pipe_valve_adds_no_edge.

(* ... so with intact junction references of those rows every edge joins two junctions (pi valves may be present) *)
Theorem edges_join_junctions : forall a n,
  (forall tb r, In tb (n_tables n) -> In r (snd tb) -> b_pi r = false ->
     In (b_from r) (map j_label (n_junctions n)) /\ In (b_to r) (map j_label (n_junctions n))) ->
  forall e, In e (edges a n) ->
    In (e_u e) (map j_label (n_junctions n)) /\ In (e_v e) (map j_label (n_junctions n)).
Proof.
  intros a n H [u v t l w] He. apply edge_row_not_pi in He.
  destruct He as [rows [r [Ht [Hr [_ [Hpi [-> ->]]]]]]]. simpl. exact (H (t, rows) r Ht Hr Hpi).
Qed.
Print Assumptions edges_join_junctions.

(* components: a closure that is stable is exactly the set reachable over the edges *)
Theorem graph_components_are_reachability_classes : forall es k S0 v,
  stable es (iter es k S0) = true -> (In v (iter es k S0) <-> Reach es S0 v).
Proof. exact closure_is_reachability. Qed.
Print Assumptions graph_components_are_reachability_classes.

(* the graph agrees with the SOLVER: when every graph edge is an in-service, undirected, non flow-return-connect branch
   of the pit between the same junctions (pos = junction -> pit position, injective), a junction is reachable in the
   graph from the supplied junctions iff the solver's connectivity search (C04.Model.search_hyd, proved there to be
   C04's HReach) marks its node *)
Theorem graph_components_eq_islands : forall es ns seeds pos n nact slack,
  (forall x y, In x ns -> In y ns -> pos x = pos y -> x = y) -> (forall x, In x ns -> (pos x < n)%nat) ->
  (forall e, In e es -> In (e_u e) ns /\ In (e_v e) ns) -> (forall s, In s seeds -> In s ns) ->
  (forall x, In x ns -> PP.C04.Model.nthb nact (pos x) = true) ->
  (forall i, PP.C04.Model.nthb slack i = true <-> exists s, In s seeds /\ pos s = i) ->
  forall v, In v ns ->
    (Reach es seeds v <->
     PP.C04.Model.nthb (fst (PP.C04.Model.search_hyd n (bs es pos) (map PP.C04.Model.b_active (bs es pos)) nact slack)) (pos v) = true).
Proof. exact components_eq_search. Qed.
Print Assumptions graph_components_eq_islands.

(* the same over C04's table-level pit model: for junction labels js and branch tables whose rows are all in service,
   undirected and no flow-return connection, the solver's own pit C04.mk_branches js tabs (positions from its index
   lookup) has the assumed shape - no hypothesis about the pit is left, only about the tables: unique junction labels,
   intact references, the three flags, seeds among the junctions, node flags of the solver (all active, slack = seeds) *)
Theorem graph_components_eq_islands_pit : forall js tabs seeds nact slack,
  NoDup js ->
  (forall r, In r (concat tabs) ->
     PP.C04.Model.r_active r = true /\ PP.C04.Model.r_directed r = false /\ PP.C04.Model.r_frc r = false) ->
  (forall r, In r (concat tabs) -> In (PP.C04.Model.r_from r) js /\ In (PP.C04.Model.r_to r) js) ->
  (forall s, In s seeds -> In s js) ->
  (forall x, In x js -> PP.C04.Model.nthb nact (pit_pos js x) = true) ->
  (forall i, PP.C04.Model.nthb slack i = true <-> exists s, In s seeds /\ pit_pos js s = i) ->
  forall v, In v js ->
    (Reach (pit_edges tabs) seeds v <->
     PP.C04.Model.nthb (fst (PP.C04.Model.search_hyd (length js) (PP.C04.Model.mk_branches js tabs)
                               (map PP.C04.Model.b_active (PP.C04.Model.mk_branches js tabs)) nact slack)) (pit_pos js v) = true).
Proof.
  intros js tabs seeds nact slack Hu Hflags Hends Hseeds Hact Hslack v Hv. rewrite (pit_shape js tabs Hflags).
  apply (components_eq_search (pit_edges tabs) js seeds (pit_pos js) (length js) nact slack
           (pit_pos_inj js Hu) (pit_pos_lt js Hu)); auto.
  intros e He. unfold pit_edges in He. apply in_map_iff in He. destruct He as [r [<- Hr]]. simpl. now apply Hends.
Qed.
Print Assumptions graph_components_eq_islands_pit.

(* instance: junctions 10, 4, 7 (pit positions 0, 1, 2), one pipe 10-4, supply at 10: the solver marks 10 and 4, not 7,
   and the graph closure from [10] over the same table is [10; 4] *)
Example islands_instance :
  let js := [10; 4; 7] in
  let tabs := [[PP.C04.Model.Build_brow 1 10 4 true false false]] in
  let mark := fst (PP.C04.Model.search_hyd 3 (PP.C04.Model.mk_branches js tabs)
                     (map PP.C04.Model.b_active (PP.C04.Model.mk_branches js tabs)) [true; true; true] [true; false; false]) in
  map (fun v => PP.C04.Model.nthb mark (pit_pos js v)) js = [true; true; false] /\
  iter (pit_edges tabs) 3 [10] = [10; 4] /\ stable (pit_edges tabs) [10; 4] = true.
Proof. vm_compute. auto. Qed.

(* unsupplied_junctions = nodes not reachable from a junction of the slack set *)
Theorem unsupplied_is_unreachable_from_ext_grids : forall a n x,
  stable (edges a n) (reach a n (slacks_code n)) = true ->
  (In x (unsupplied a n) <->
   In x (nodes a n) /\ ~ Reach (edges a n) (dedupe (filter (fun y => memz y (nodes a n)) (slacks_code n))) x).
Proof. intros a n x. apply unsupplied_with_spec. Qed.
Print Assumptions unsupplied_is_unreachable_from_ext_grids.

(* unsupplied = not connected to a pressure-fixing element, whenever the code's slack set (in-service p / pt ext
   grids + flow junctions of in-service circulation pumps, since 515c489) is the set of pressure-fixing elements; the
   correspondence checks that equality for every generated net inside Coq ([sources_ok]) *)
Theorem unsupplied_eq_spec : forall a n, slacks_code n = n_sources n -> unsupplied a n = unsupplied_spec a n.
Proof. intros a n H. unfold unsupplied, unsupplied_spec. now rewrite H. Qed.
Print Assumptions unsupplied_eq_spec.

(* witness net: ext grid at 0, pipes 3:(0,1) 7:(1,2); a loop 3-4-5 closed by a circulation pump (flow junction 3);
   [witness] additionally has an open pi valve at junction 1 on pipe 3 *)
Definition jn (l : Z) := mkJ l true.
Definition wtables (valves : list brow) : list btable :=
  [ ("pipe", [mkB 3 0 1 true 32 false; mkB 7 1 2 true 16 false; mkB 4 3 4 true 32 false; mkB 5 4 5 true 32 false]);
    ("valve", valves); ("circ_pump_pressure", [mkB 0 5 3 true 0 false]) ].
Definition witness : net := mkNet (map jn [0; 1; 2; 3; 4; 5]) (wtables [mkB 0 1 3 true 0 true]) [(0, true, true)] [0; 3].
Definition witness_nv : net := mkNet (map jn [0; 1; 2; 3; 4; 5]) (wtables []) [(0, true, true)] [0; 3].
Definition dflt : args := mkArgs [] true true [] [] true.

(* the witness with the pi valve and the circulation-pump loop: the valve adds no edge, the loop is supplied, the
   ext-grid part and the loop are separate components *)
Example witness_supplied :
  slacks_code witness = n_sources witness /\ unsupplied dflt witness = [] /\
  length (edges dflt witness) = 5%nat /\ ~ In 3 (reach dflt witness [0]) /\
  stable (edges dflt witness) (reach dflt witness (slacks_code witness)) = true.
Proof.
  vm_compute. repeat split; auto. intros H. repeat (destruct H as [H | H]; [discriminate H|]). exact H.
Qed.

(* distances: every value of a stable relaxation is the length of a walk from a source, and no walk is shorter *)
Theorem distance_is_shortest_path : forall a n srcs,
  dstable (arcs a n) srcs (dist_map a n srcs) = true ->
  (forall v x, get (dist_map a n srcs) v = Some x -> Walk (arcs a n) srcs v x) /\
  (forall v y, Walk (arcs a n) srcs v y -> exists x, get (dist_map a n srcs) v = Some x /\ x <= y).
Proof.
  intros a n srcs Hs. split.
  - unfold dist_map. apply rounds_attained. apply init_attained.
  - now apply dstable_minimal.
Qed.
Print Assumptions distance_is_shortest_path.

(* non-vacuity: the witness satisfies the uniqueness hypotheses, its closures and relaxation are stable,
   and the distance from junction 0 to junction 2 is 32 + 16 *)
Example witness_facts :
  NoDup (map fst (n_tables witness_nv)) /\
  stable (edges dflt witness_nv) (reach dflt witness_nv [0]) = true /\
  dstable (arcs dflt witness_nv) [0] (dist_map dflt witness_nv [0]) = true /\
  get (dist_map dflt witness_nv [0]) 2 = Some 48 /\
  length (edges dflt witness_nv) = 5%nat /\
  map e_lab (edges (mkArgs [("pipe", mkF true true (Some [5; 3]))] true true [] [] true) witness) = [5; 3; 0].
Proof.
  split; [repeat constructor; simpl; intuition discriminate|]. vm_compute. auto.
Qed.
