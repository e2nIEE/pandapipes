(* C18 - proofs about the model of the topology graph (any net, any arguments). *)
From Coq Require Import String List Bool ZArith Lia FinFun.
From PP Require Import C18.Model.
Import ListNotations.
Open Scope string_scope.
Open Scope Z_scope.
Open Scope list_scope.

Lemma memz_In x l : memz x l = true <-> In x l.
Proof.
  unfold memz. rewrite existsb_exists. split.
  - intros [y [H E]]. apply Z.eqb_eq in E. now subst.
  - intros H. exists x. split; auto. apply Z.eqb_refl.
Qed.

Lemma memz_false x l : memz x l = false <-> ~ In x l.
Proof. rewrite <- memz_In. symmetry. apply not_true_iff_false. Qed.

Lemma dedupe_In x l : In x (dedupe l) <-> In x l.
Proof.
  induction l as [|y l IH]; simpl; [tauto|]. destruct (memz y l) eqn:M.
  - rewrite IH. split; auto. intros [-> | H]; auto. now apply memz_In.
  - simpl. rewrite IH. tauto.
Qed.

Lemma union_In x a b : In x (union a b) <-> In x a \/ In x b.
Proof.
  unfold union. rewrite in_app_iff, filter_In, dedupe_In. split.
  - intros [H | [H _]]; auto.
  - intros [H | H]; auto. destruct (memz x a) eqn:M; [left; now apply memz_In | right; split; auto].
Qed.

Lemma sel_rows_In o rows r : In r (sel_rows o rows) <->
  In r rows /\ match o with None => True | Some ls => In (b_label r) ls end.
Proof.
  destruct o as [ls|]; simpl; [|tauto]. rewrite in_flat_map. split.
  - intros [l [Hl Hr]]. apply filter_In in Hr. destruct Hr as [Hr E]. apply Z.eqb_eq in E. subst. auto.
  - intros [Hr Hl]. exists (b_label r). split; auto. apply filter_In. split; auto. apply Z.eqb_refl.
Qed.

Definition kept (a : args) (n : net) (x : Z) : Prop := ~ In x (removed a n).

Lemma edge_in_graph_iff a n u v t l w :
  In (mkE u v t l w) (edges a n) <->
  exists rows r, In (t, rows) (n_tables n) /\ In r (sel_rows (f_only (flags_of (a_flags a) t)) rows) /\
    f_include (flags_of (a_flags a) t) = true /\ row_in a n t r = true /\
    u = b_from r /\ v = b_to r /\ l = b_label r /\ w = b_w r /\ kept a n u /\ kept a n v.
Proof.
  unfold edges, raw_edges, kept. rewrite filter_In, in_flat_map. split.
  - intros [[tb [Htb He]] Hk]. unfold table_edges in He.
    destruct (f_include (flags_of (a_flags a) (fst tb))) eqn:I; [|contradiction].
    apply in_map_iff in He. destruct He as [r [E Hr]]. apply filter_In in Hr. destruct Hr as [Hr Hin].
    inversion E; subst. destruct tb as [t rows]. simpl in *.
    apply andb_true_iff in Hk. destruct Hk as [K1 K2]. apply negb_true_iff in K1, K2.
    exists rows, r. repeat split; auto; now apply memz_false.
  - intros [rows [r [Ht [Hr [I [Hin [-> [-> [-> [-> [K1 K2]]]]]]]]]]]. split.
    + exists (t, rows). split; auto. unfold table_edges. simpl. rewrite I.
      apply in_map_iff. exists r. split; auto. apply filter_In. auto.
    + simpl. apply memz_false in K1, K2. now rewrite K1, K2.
Qed.

(* the meaning of [row_in]: active unless the status is ignored; a pipe with a closed pi valve is cut
   whenever valve states are respected *)
Lemma row_in_spec a n t r :
  row_in a n t r = true <->
  b_pi r = false /\
  (f_respect (flags_of (a_flags a) t) = false \/ b_act r = true) /\
  ~ (t = "pipe" /\ a_rs_valves a = true /\ In (b_label r) (closed_pi_pipes n)).
Proof.
  unfold row_in. rewrite !andb_true_iff, orb_true_iff, !negb_true_iff. split.
  - intros [[H0 H1] H2]. repeat split; auto. intros [-> [Hv Hc]]. apply memz_In in Hc. rewrite Hv, Hc in H2. discriminate.
  - intros [H0 [H1 H2]]. repeat split; auto.
    destruct (String.eqb t "pipe") eqn:E; auto. destruct (a_rs_valves a) eqn:V; auto.
    destruct (memz (b_label r) (closed_pi_pipes n)) eqn:M; auto.
    exfalso. apply H2. apply String.eqb_eq in E. apply memz_In in M. auto.
Qed.

Lemma closed_pi_In n p : In p (closed_pi_pipes n) <->
  exists r, In r (rows_of n "valve") /\ b_pi r = true /\ b_act r = false /\ b_to r = p.
Proof.
  unfold closed_pi_pipes. rewrite in_map_iff. split.
  - intros [r [E Hr]]. apply filter_In in Hr. destruct Hr as [Hr B]. apply andb_true_iff in B.
    destruct B as [B1 B2]. apply negb_true_iff in B2. eauto.
  - intros [r [Hr [B1 [B2 E]]]]. exists r. split; auto. apply filter_In. split; auto. now rewrite B1, B2.
Qed.

(* a pi valve adds no edge of its own: every edge comes from a row that is not a pipe-attached valve, and joins two
   junctions when the references of those rows are intact *)
Lemma edge_row_not_pi a n u v t l w : In (mkE u v t l w) (edges a n) ->
  exists rows r, In (t, rows) (n_tables n) /\ In r rows /\ b_label r = l /\ b_pi r = false /\ u = b_from r /\ v = b_to r.
Proof.
  intros He. apply edge_in_graph_iff in He.
  destruct He as [rows [r [Ht [Hr [_ [Hrow [-> [-> [-> _]]]]]]]]]. apply row_in_spec in Hrow. destruct Hrow as [Hpi _].
  apply sel_rows_In in Hr. destruct Hr as [Hr _]. exists rows, r. repeat split; auto.
Qed.

(* one edge per branch: keys (table, label) are unique when tables and labels are *)
Definition key (e : edge) : string * Z := (e_tab e, e_lab e).

Lemma NoDup_map_filter {A B} (f : A -> B) (p : A -> bool) l : NoDup (map f l) -> NoDup (map f (filter p l)).
Proof.
  induction l as [|x l IH]; simpl; auto. intros H. inversion H; subst. destruct (p x); simpl; auto.
  constructor; auto. intros Hin. apply H2. apply in_map_iff in Hin. destruct Hin as [y [E Hy]].
  apply filter_In in Hy. apply in_map_iff. exists y. tauto.
Qed.

Lemma NoDup_app_disj {A} (l1 l2 : list A) :
  NoDup l1 -> NoDup l2 -> (forall x, In x l1 -> In x l2 -> False) -> NoDup (l1 ++ l2).
Proof.
  induction l1 as [|a l1 IH]; simpl; auto. intros H1 H2 Hd. inversion H1; subst. constructor.
  - rewrite in_app_iff. intros [H | H]; auto. apply (Hd a); auto.
  - apply IH; auto. intros x Hx1 Hx2. apply (Hd x); auto.
Qed.

(* pieces without repeated keys, pieces of different origin (h) with different keys *)
Lemma NoDup_map_flat_map {A B C D} (f : B -> C) (h : A -> D) (g : A -> list B) l :
  NoDup (map h l) -> (forall x, In x l -> NoDup (map f (g x))) ->
  (forall x y b c, In b (g x) -> In c (g y) -> f b = f c -> h x = h y) ->
  NoDup (map f (flat_map g l)).
Proof.
  induction l as [|x l IH]; simpl; intros Hn Hg Hd; [constructor|]. inversion Hn as [|? ? Hx Hn']; subst.
  rewrite map_app. apply NoDup_app_disj; auto.
  intros k Hk1 Hk2. apply in_map_iff in Hk1, Hk2. destruct Hk1 as [b [E1 Hb]]. destruct Hk2 as [c [E2 Hc]].
  apply in_flat_map in Hc. destruct Hc as [y [Hy Hc]]. apply Hx. apply in_map_iff. exists y. split; [|exact Hy].
  symmetry. apply (Hd x y b c); auto. congruence.
Qed.

Lemma sel_rows_NoDup o rows : NoDup (map b_label rows) ->
  match o with None => True | Some ls => NoDup ls end -> NoDup (map b_label (sel_rows o rows)).
Proof.
  intros Hr Ho. destruct o as [ls|]; simpl; auto.
  apply (NoDup_map_flat_map b_label (fun l => l)); [now rewrite map_id | intros; now apply NoDup_map_filter |].
  intros x y b c Hb Hc E. apply filter_In in Hb, Hc. destruct Hb as [_ Eb], Hc as [_ Ec].
  apply Z.eqb_eq in Eb, Ec. congruence.
Qed.

Definition selected_rows (a : args) (tb : btable) : list brow := sel_rows (f_only (flags_of (a_flags a) (fst tb))) (snd tb).

Lemma keys_table_edges a n tb : NoDup (map b_label (selected_rows a tb)) -> NoDup (map key (table_edges a n tb)).
Proof.
  intros H. unfold table_edges. fold (selected_rows a tb).
  destruct (f_include (flags_of (a_flags a) (fst tb))); [|constructor].
  rewrite map_map. unfold key. simpl. rewrite <- (map_map b_label (pair (fst tb))).
  apply Injective_map_NoDup.
  - intros x y Hxy. now inversion Hxy.
  - now apply NoDup_map_filter.
Qed.

Lemma key_table a n tb e : In e (table_edges a n tb) -> e_tab e = fst tb.
Proof.
  unfold table_edges. destruct (f_include (flags_of (a_flags a) (fst tb))); [|contradiction].
  intros H. apply in_map_iff in H. destruct H as [r [<- _]]. reflexivity.
Qed.

Lemma keys_raw a n tabs :
  NoDup (map fst tabs) -> (forall tb, In tb tabs -> NoDup (map b_label (selected_rows a tb))) ->
  NoDup (map key (flat_map (table_edges a n) tabs)).
Proof.
  intros Hn Hl. apply (NoDup_map_flat_map key fst); auto.
  - intros tb Htb. now apply keys_table_edges, Hl.
  - intros x y b c Hb Hc E. apply key_table in Hb, Hc. inversion E. congruence.
Qed.

(* components = reachability classes *)
Definition adj (es : list edge) (x y : Z) : Prop :=
  exists e, In e es /\ ((e_u e = x /\ e_v e = y) \/ (e_v e = x /\ e_u e = y)).

Inductive Reach (es : list edge) (S : list Z) : Z -> Prop :=
| R_seed : forall v, In v S -> Reach es S v
| R_step : forall u v, Reach es S u -> adj es u v -> Reach es S v.

Lemma nbrs_adj es x y : In y (nbrs es x) <-> adj es x y.
Proof.
  unfold nbrs, adj. rewrite in_flat_map. split.
  - intros [e [He Hy]]. exists e. split; auto. apply in_app_iff in Hy. destruct Hy as [Hy | Hy].
    + destruct (Z.eqb (e_u e) x) eqn:E; [|contradiction]. apply Z.eqb_eq in E. destruct Hy as [<- | []]. auto.
    + destruct (Z.eqb (e_v e) x) eqn:E; [|contradiction]. apply Z.eqb_eq in E. destruct Hy as [<- | []]. auto.
  - intros [e [He [[<- <-] | [<- <-]]]]; exists e; split; auto; apply in_app_iff.
    + left. rewrite Z.eqb_refl. now left.
    + right. rewrite Z.eqb_refl. now left.
Qed.

Lemma Reach_trans es S S' v : (forall s, In s S' -> Reach es S s) -> Reach es S' v -> Reach es S v.
Proof. intros H R. induction R; [auto | eapply R_step; eauto]. Qed.

Lemma expand_sound es S v : In v (expand es S) -> Reach es S v.
Proof.
  unfold expand. rewrite union_In, in_flat_map. intros [H | [x [Hx Hv]]].
  - now apply R_seed.
  - apply R_step with x; [now apply R_seed | now apply nbrs_adj].
Qed.

Lemma iter_sound es k : forall S v, In v (iter es k S) -> Reach es S v.
Proof.
  induction k as [|k IH]; intros S v H; simpl in H; [now apply R_seed|].
  apply Reach_trans with (expand es S); [apply expand_sound | now apply IH].
Qed.

Lemma iter_incl es k : forall S v, In v S -> In v (iter es k S).
Proof.
  induction k as [|k IH]; intros S v H; simpl; auto. apply IH. unfold expand. apply union_In. now left.
Qed.

Lemma stable_complete es S S0 v : stable es S = true -> (forall s, In s S0 -> In s S) -> Reach es S0 v -> In v S.
Proof.
  intros Hs H0 R. induction R as [v Hv | u v R IH A]; auto.
  unfold stable in Hs. rewrite forallb_forall in Hs. specialize (Hs u IH). rewrite forallb_forall in Hs.
  apply memz_In. apply Hs. now apply nbrs_adj.
Qed.

Lemma closure_is_reachability es k S0 v :
  stable es (iter es k S0) = true -> (In v (iter es k S0) <-> Reach es S0 v).
Proof.
  intros Hs. split; [apply iter_sound|]. intros R.
  apply (stable_complete es (iter es k S0) S0 v Hs); auto. intros s Hin. now apply iter_incl.
Qed.

Lemma unsupplied_with_spec a n slacks x :
  stable (edges a n) (reach a n slacks) = true ->
  (In x (unsupplied_with a n slacks) <->
   In x (nodes a n) /\ ~ Reach (edges a n) (dedupe (filter (fun y => memz y (nodes a n)) slacks)) x).
Proof.
  intros Hs. unfold unsupplied_with. rewrite filter_In, negb_true_iff, memz_false.
  unfold reach in *. rewrite (closure_is_reachability _ _ _ x Hs). tauto.
Qed.

(* distances = shortest walks *)
Inductive Walk (ar : list arc) (srcs : list Z) : Z -> Z -> Prop :=
| W_src : forall s, In s srcs -> Walk ar srcs s 0
| W_arc : forall u v w x, Walk ar srcs u x -> In (u, v, w) ar -> Walk ar srcs v (x + w).

Definition attained (ar : list arc) (srcs : list Z) (d : dmap) : Prop :=
  forall v x, get d v = Some x -> Walk ar srcs v x.

Lemma relax1_attained ar srcs d c : In c ar -> attained ar srcs d -> attained ar srcs (relax1 d c).
Proof.
  intros Hc H. destruct c as [[u v] w]. unfold relax1. destruct (get d u) as [du|] eqn:Gu; auto.
  assert (New : attained ar srcs ((v, du + w) :: d)).
  { intros v' x Hx. simpl in Hx. destruct (Z.eqb v' v) eqn:E; [|now apply H].
    apply Z.eqb_eq in E. subst v'. inversion Hx; subst. eapply W_arc; eauto. }
  destruct (get d v) as [dv|]; auto. destruct (Z.ltb (du + w) dv); auto.
Qed.

Lemma fold_relax_attained ar srcs l : forall d, incl l ar -> attained ar srcs d -> attained ar srcs (fold_left relax1 l d).
Proof.
  induction l as [|c l IH]; intros d Hi H; simpl; auto. apply IH.
  - intros x Hx. apply Hi. now right.
  - apply relax1_attained; auto. apply Hi. now left.
Qed.

Lemma rounds_attained ar srcs k : forall d, attained ar srcs d -> attained ar srcs (rounds ar k d).
Proof.
  induction k as [|k IH]; intros d H; simpl; auto. apply IH. unfold relax. apply fold_relax_attained; auto.
  apply incl_refl.
Qed.

Lemma init_attained ar srcs : attained ar srcs (map (fun s => (s, 0)) srcs).
Proof.
  intros v x H. assert (G : forall l, get (map (fun s => (s, 0)) l) v = Some x -> x = 0 /\ In v l).
  { induction l as [|s l IH]; simpl; [discriminate|]. destruct (Z.eqb v s) eqn:E.
    - apply Z.eqb_eq in E. intros Hx. inversion Hx. subst. auto.
    - intros Hx. destruct (IH Hx). auto. }
  destruct (G srcs H) as [-> Hin]. now apply W_src.
Qed.

Lemma dstable_minimal ar srcs d : dstable ar srcs d = true ->
  forall v y, Walk ar srcs v y -> exists x, get d v = Some x /\ x <= y.
Proof.
  intros Hs v y W. unfold dstable in Hs. apply andb_true_iff in Hs. destruct Hs as [Ha Hsrc].
  rewrite forallb_forall in Ha, Hsrc.
  induction W as [s Hin | u v w x W IH Harc].
  - specialize (Hsrc s Hin). destruct (get d s) as [x|]; [|discriminate]. exists x. split; auto. now apply Z.leb_le.
  - destruct IH as [du [Gu Lu]]. specialize (Ha (u, v, w) Harc). simpl in Ha. rewrite Gu in Ha.
    destruct (get d v) as [dv|]; [|discriminate]. exists dv. split; auto. apply Z.leb_le in Ha. lia.
Qed.
